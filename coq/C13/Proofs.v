(* C13 — reflective checks per instruction kind and their lifting to theorems over all words. *)
From Coq Require Import NArith List Bool.
From WV Require Import Base.BitReflect C13.Model.
Open Scope N_scope.

(* the region the writer is allowed to touch.  For Movnz the writer also forces sf and the fixed
   opcode bits (31, 28:23) to the 64-bit MOVZ/MOVN encoding, so the region is everything except
   hw[22:21] and rd[4:0]; for a valid 64-bit MOVZ/MOVN those forced bits are already in place. *)
Definition region (k : kind) : N :=
  match k with A_MovnzPos | A_MovnzNeg => 0xFF9FFFE0 | _ => fm k end.

Definition wsub (a b c : wexpr) (x : nat) : wexpr :=
  match x with 0%nat => a | 1%nat => b | 2%nat => c | _ => Const 0 end.

Lemma eval_wsub r a b c e :
  eval r (sub (wsub a b c) e) = eval (wenv (eval r a) (eval r b) (eval r c)) e.
Proof. rewrite eval_sub. apply eval_ext. intros [|[|[|x]]]; reflexivity. Qed.

Definition wterm_inrange (k : kind) : wexpr :=
  sub (wsub old (Trunc (width k) (Var 1)) (Trunc (width k) (Var 2))) (wterm k).

Definition local_ok (k : kind) : bool :=
  bits_agree_on (fun i => (i <? window k) && negb (N.testbit (region k) i)) (wterm_inrange k) old.
Definition indep_ok (k : kind) : bool :=
  bits_indep_on (fun i => (i <? window k) && N.testbit (region k) i) 0 (wterm k).

(* value classes for the decode round trip: aligned (low bit implicit) for B/J/Cb/Cj *)
Definition lowzero (k : kind) : N := match k with R_B | R_J | R_Cb | R_Cj => 1 | _ => 0 end.
Definition signed (k : kind) : bool :=
  match k with
  | A_LdrRegister | A_Add | L_Shift5 | L_Shift10 | L_Call30 | L_Call36 | A_MovnzPos | A_MovnzNeg => false
  | _ => true
  end.
(* an arbitrary in-range value: [stored k] bits, the low [lowzero k] of them zero *)
Definition inrange_val (k : kind) : wexpr :=
  Shl (Trunc (stored k - lowzero k) (Shr (Var 1) (lowzero k))) (lowzero k).
Definition canon_term (k : kind) : wexpr :=
  if signed k then SExt (stored k - 1) (inrange_val k) else inrange_val k.
(* the encoder on an arbitrary old word with the field cleared and an arbitrary in-range value, as a term *)
Definition enc_term (k : kind) : wexpr :=
  sub (wsub (And old (Const (N.ldiff (N.ones (window k)) (region k)))) (inrange_val k) (inrange_val k))
      (wterm k).
(* [read] evaluates its term in a constant environment, so the encoder term goes in for every variable *)
Definition readback_ok (k : kind) : bool :=
  match rterm k with
  | Some rt => bits_agree_on (fun _ => true) (sub (fun _ => enc_term k) rt) (canon_term k)
  | None => false
  end.

Lemma write_inrange k o x :
  x < 2 ^ width k -> pre k x < 2 ^ width k ->
  write k o x = eval (wenv o (pre k x) x) (wterm_inrange k).
Proof.
  intros Hx Hp. unfold wterm_inrange. rewrite eval_wsub. cbn [eval old wenv].
  rewrite !trunc_small by assumption. reflexivity.
Qed.

Lemma window_lt64 k i : i < window k -> i < 64.
Proof. intros H. apply (N.lt_le_trans _ _ _ H). destruct k; discriminate. Qed.

Theorem local_sound k : local_ok k = true ->
  forall o x i, i < window k -> x < 2 ^ width k -> pre k x < 2 ^ width k ->
  N.testbit (region k) i = false -> N.testbit (write k o x) i = N.testbit o i.
Proof.
  intros H o x i Hw Hx Hp Hr. rewrite (write_inrange k o x Hx Hp). unfold local_ok in H.
  rewrite (bits_agree_on_sound _ _ _ H (wenv o (pre k x) x) i (window_lt64 k i Hw)).
  - reflexivity.
  - rewrite Hr. apply N.ltb_lt in Hw. rewrite Hw. reflexivity.
Qed.

Theorem indep_sound k : indep_ok k = true ->
  forall o1 o2 x i, i < window k -> N.testbit (region k) i = true ->
  N.testbit (write k o1 x) i = N.testbit (write k o2 x) i.
Proof.
  intros H o1 o2 x i Hw Hr. unfold indep_ok in H. apply (bits_indep_on_sound _ _ _ H _ _ i (window_lt64 k i Hw)).
  - rewrite Hr. apply N.ltb_lt in Hw. rewrite Hw. reflexivity.
  - intros [|y] Hy; [congruence|reflexivity].
Qed.

(* v1 ranges over all N; [inrange_val] makes an arbitrary in-range (aligned) field value of it *)
Definition enc_in (k : kind) (o v1 : N) : N :=
  let x := eval (wenv 0 v1 v1) (inrange_val k) in
  eval (wenv (N.land o (N.ldiff (N.ones (window k)) (region k))) x x) (wterm k).
Definition canon (k : kind) (v1 : N) : N := eval (wenv 0 v1 v1) (canon_term k).

(* [inrange_val] and [canon_term] mention only Var 1, so the old word in the environment is immaterial *)
Lemma eval_enc_term k o v1 : eval (wenv o v1 v1) (enc_term k) = enc_in k o v1.
Proof. unfold enc_term. rewrite eval_wsub. reflexivity. Qed.

Theorem readback_sound k : readback_ok k = true ->
  forall o v1, exists r, read k (enc_in k o v1) = Some r /\
    forall i, i < 64 -> N.testbit r i = N.testbit (canon k v1) i.
Proof.
  unfold readback_ok, read. destruct (rterm k) as [rt|]; [|discriminate]. intros H o v1.
  eexists. split; [reflexivity|]. intros i Hi.
  pose proof (bits_agree_on_sound _ _ _ H (wenv o v1 v1) i Hi eq_refl) as E.
  rewrite eval_sub, eval_enc_term in E. rewrite E.
  unfold canon, canon_term. destruct (signed k); reflexivity.
Qed.

Definition or_only (k : kind) : bool :=       (* AArch64 writers that never clear the field *)
  match k with
  | A_Adr | A_Movkz | A_Ldr | A_LdrRegister | A_Add | A_LdSt | A_TstBr | A_Bcond | A_JumpCall => true
  | _ => false
  end.
Definition is_call30 (k : kind) : bool := match k with L_Call30 => true | _ => false end.

Lemma kind_of_id_id k : kind_of_id (kind_id k) = Some k.
Proof. destruct k; reflexivity. Qed.

Lemma all_kinds_forallb (P : kind -> bool) : forallb P all_kinds = true -> forall k, P k = true.
Proof.
  intros H k. apply (proj1 (forallb_forall _ _) H). exact (proj1 (find_some _ _ (kind_of_id_id k))).
Qed.

Lemma all_kinds_but (c P : kind -> bool) :
  forallb (fun k => if c k then true else P k) all_kinds = true -> forall k, c k = false -> P k = true.
Proof. intros H k Hc. apply all_kinds_forallb with (k := k) in H. rewrite Hc in H. exact H. Qed.

Lemma local_all_but_call30 k : is_call30 k = false -> local_ok k = true.
Proof. apply (all_kinds_but is_call30 local_ok). vm_compute. reflexivity. Qed.

Lemma indep_all_but_known k : is_call30 k = false -> or_only k = false -> indep_ok k = true.
Proof.
  intros H1 H2. apply (all_kinds_but (fun k => is_call30 k || or_only k) indep_ok).
  - (* evaluate over the literal position list, as [bits_agree_on] does *)
    unfold indep_ok, bits_indep_on. change (map N.of_nat (seq 0 64)) with range64. vm_compute. reflexivity.
  - rewrite H1, H2. reflexivity.
Qed.

Definition readback_proved (k : kind) : bool :=
  match k with
  | A_Adr | A_Movkz | A_Ldr | A_LdrRegister | A_Add | A_LdSt | A_TstBr | A_Bcond | A_JumpCall
  | R_I | R_S | R_B | R_J | R_Cb | R_Cj | L_Shift5 | L_Shift10 | L_Branch21 | L_Branch26 => true
  | _ => false
  end.
Lemma readback_for_proved k : readback_proved k = true -> readback_ok k = true.
Proof.
  intros H. apply (all_kinds_but (fun k => negb (readback_proved k)) readback_ok); [vm_compute; reflexivity|].
  rewrite H. reflexivity.
Qed.

Lemma readback_refuted_R_Ui :
  read_any R_Ui (write R_Ui 0 0x12345678) = Some 0x11B45678.
Proof. vm_compute. reflexivity. Qed.
