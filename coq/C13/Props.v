From Coq Require Import NArith.
From WV Require Import C13.Model C13.Proofs.
Open Scope N_scope.

(* (1) only the bits of the immediate field change — every kind except the known class L_Call30 *)
Theorem C13_write_local_except_known : forall k, is_call30 k = false ->
  forall o x i, i < window k -> x < 2 ^ width k -> pre k x < 2 ^ width k ->
  N.testbit (region k) i = false -> N.testbit (write k o x) i = N.testbit o i.
Proof. intros k Hk. apply local_sound, local_all_but_call30, Hk. Qed.

(* (2) the new field content does not depend on the old window — except the known classes *)
Theorem C13_write_indep_except_known : forall k, is_call30 k = false -> or_only k = false ->
  forall o1 o2 x i, i < window k -> N.testbit (region k) i = true ->
  N.testbit (write k o1 x) i = N.testbit (write k o2 x) i.
Proof. intros k H1 H2. apply indep_sound, indep_all_but_known; assumption. Qed.

(* (3) decoding gives back the written value (all 64 result bits), for every in-range value *)
Theorem C13_readback_except_known : forall k, readback_proved k = true ->
  forall o v1, exists r, read k (enc_in k o v1) = Some r /\
    forall i, i < 64 -> N.testbit r i = N.testbit (canon k v1) i.
Proof. intros k H. apply readback_sound, readback_for_proved, H. Qed.

(* the full-strength statements are false of the faithful model: witnesses *)
Theorem C13_indep_refuted_aarch64_or_only : forall k, or_only k = true -> indep_ok k = false.
Proof.
  intros k H. apply Bool.negb_true_iff.
  apply (all_kinds_but (fun k => negb (or_only k)) (fun k => negb (indep_ok k))); [vm_compute; reflexivity|].
  rewrite H. reflexivity.
Qed.
Theorem C13_indep_refuted_witness :
  N.testbit (write A_Add 0x913FFC00 0x120) 10 <> N.testbit (write A_Add 0x91000000 0x120) 10.
Proof. vm_compute. discriminate. Qed.
(* an in-range value (28 bits) spills into bit 32 = rd of the second instruction *)
Theorem C13_local_refuted_call30 :
  0x8000000 < 2 ^ width L_Call30 /\ N.testbit (fm L_Call30) 32 = false /\
  N.testbit (write L_Call30 0 0x8000000) 32 <> N.testbit 0 32.
Proof. vm_compute. repeat split; discriminate. Qed.
(* v + 0x8000 carries into bit 36: 21 bits handed to a 20-bit field *)
Theorem C13_local_refuted_call36_carry :
  0xFFFFF8000 < 2 ^ width L_Call36 /\ N.testbit (fm L_Call36) 25 = false /\
  N.testbit (write L_Call36 0 0xFFFFF8000) 25 = true.
Proof. vm_compute. repeat split; reflexivity. Qed.
Theorem C13_readback_refuted_call30 : read_any L_Call30 (write L_Call30 0 1) = Some 0x4000.
Proof. vm_compute. reflexivity. Qed.
Theorem C13_readback_refuted_call36 : read_any L_Call36 (write L_Call36 0 0x12345) = Some 0xa345.
Proof. vm_compute. reflexivity. Qed.
(* hi20 = 0x12345 is written; the decoder returns 0x11B45 (no shift back) *)
Theorem C13_readback_refuted_riscv_utype :
  write R_U 0 0x12345678 = 0x12345000 /\ read_any R_U (write R_U 0 0x12345678) = Some 0x11B45.
Proof. vm_compute. split; reflexivity. Qed.

Check C13_write_local_except_known : forall k, is_call30 k = false ->
  forall o x i, i < window k -> x < 2 ^ width k -> pre k x < 2 ^ width k ->
  N.testbit (region k) i = false -> N.testbit (write k o x) i = N.testbit o i.
Check C13_write_indep_except_known : forall k, is_call30 k = false -> or_only k = false ->
  forall o1 o2 x i, i < window k -> N.testbit (region k) i = true ->
  N.testbit (write k o1 x) i = N.testbit (write k o2 x) i.

Print Assumptions C13_write_local_except_known.
Print Assumptions C13_write_indep_except_known.
Print Assumptions C13_readback_except_known.
Print Assumptions C13_indep_refuted_aarch64_or_only.
Print Assumptions C13_local_refuted_call30.
Print Assumptions C13_readback_refuted_riscv_utype.
