(* C39 — the invariants of the traversal and the four theorems.
   A step rewrites one group's record ([upd]; S_send two, S_count one and perhaps the released group) and every
   invariant speaks of each group's record, so a proof by cases on the step looks at the changed group and passes
   the others on ([upd_ind], [upd_keeps]).  What a status means is one [match] ([gok]); the activation counter, the
   potential and the number of unhandled items are sums in which one summand changes ([total_change]). *)
From Coq Require Import List Bool Arith Lia.
From WV Require Import C39.Model.
Import ListNotations.

Section Proofs.
  Variable item : Type.
  Variable item_eqb : item -> item -> bool.
  Hypothesis item_eqb_spec : forall a b, reflect (a = b) (item_eqb a b).
  Variable grp : item -> nat.
  Variable succ : item -> list item.
  Variable roots : nat -> list item.
  Variable synthetic : nat -> bool.
  Variable groups : list nat.
  Hypothesis groups_nodup : NoDup groups.
  Hypothesis grp_ok : forall i, In (grp i) groups.
  Hypothesis one_synthetic : forall g h, synthetic g = true -> synthetic h = true -> g = h.
  Hypothesis roots_route : forall g r, In r (roots g) -> grp r = g.

  Notation state := (state item).
  Notation gstate := (gstate item).
  Notation step := (step item item_eqb grp succ roots synthetic groups).
  Notation reachable := (reachable item item_eqb grp succ roots synthetic groups).
  Notation init := (init item groups).
  Notation Reach := (Reach item succ roots groups).
  Notation mem := (mem item item_eqb).

  Lemma mem_In i l : mem i l = true <-> In i l.
  Proof.
    unfold Model.mem. rewrite existsb_exists. split.
    - intros (x & Hx & E). destruct (item_eqb_spec i x); [subst; assumption|discriminate].
    - intros H. exists i. split; [assumption|]. destruct (item_eqb_spec i i); [reflexivity|contradiction].
  Qed.

  Lemma first_return_3 (x : gstate) : (first_return x =? 3) = (act x =? 3).
  Proof. unfold first_return. destruct (Nat.eqb_spec (act x) 1) as [->|]; reflexivity. Qed.

  Lemma upd_same (f : nat -> gstate) g x : upd f g x g = x.
  Proof. unfold upd. rewrite Nat.eqb_refl. reflexivity. Qed.
  Lemma upd_other (f : nat -> gstate) g x h : h <> g -> upd f g x h = f h.
  Proof. intros H. unfold upd. destruct (Nat.eqb_spec h g); [contradiction|reflexivity]. Qed.

  Lemma upd_ind (P : nat -> gstate -> Prop) f g x : P g x -> (forall k, k <> g -> P k (f k)) -> forall k, P k (upd f g x k).
  Proof. intros Hx Hf k. destruct (Nat.eq_dec k g) as [->|Hk]; [rewrite upd_same|rewrite upd_other by assumption]; auto. Qed.

  Lemma upd_keeps (P : nat -> gstate -> Prop) f g x : P g x -> (forall k, P k (f k)) -> forall k, P k (upd f g x k).
  Proof. intros Hx Hf. apply upd_ind; auto. Qed.

  (* S_count, group by group: nothing but [act] of the counted group and [st] of a released one changes. *)
  Lemma count_upd (f : nat -> gstate) g k :
    upd f g {| st := st (f g); local := local (f g); outbox := outbox (f g); slot := slot (f g); act := 3 |} k =
    {| st := st (f k); local := local (f k); outbox := outbox (f k); slot := slot (f k); act := if k =? g then 3 else act (f k) |}.
  Proof. unfold upd. destruct (Nat.eqb_spec k g) as [->|_]; [reflexivity|destruct (f k); reflexivity]. Qed.

  Lemma count_nf (f : nat -> gstate) g dq (last : bool) k :
    let s1 := upd f g {| st := st (f g); local := local (f g); outbox := outbox (f g); slot := slot (f g); act := 3 |} in
    (match dq with Some d => if last then upd s1 d (set_st item (s1 d) Running) else s1 | None => s1 end) k =
    {| st := if match dq with Some d => last && (k =? d) | None => false end then Running else st (f k);
       local := local (f k); outbox := outbox (f k); slot := slot (f k); act := if k =? g then 3 else act (f k) |}.
  Proof.
    intros s1. pose proof (count_upd f g k) as E. fold s1 in E.
    destruct dq as [d|]; [destruct last|]; cbn [andb]; try exact E.
    unfold upd at 1. destruct (Nat.eqb_spec k d) as [->|_]; [rewrite E; reflexivity|exact E].
  Qed.

  (* Cases on a step, in the order of [Model.step], with the same names for the pieces in every proof: Hst the
     worker's status, Ho Hl Hsl its outbox, local queue and slot, Hn where the request goes, Ha the activation stage. *)
  Ltac step_cases Hs :=
    destruct Hs as [s g Hg Hst Hsy|s g i l Hst Ho Hl|s g i l Hst Ho Hl|s g n rest Hst Ho Hn|s g n rest Hst Ho Hn
                   |s g Hst Ho Hl Hsl|s g Hst Ho Hl Hsl|s g Ha].

  (* What a status says of the group's queues and activation stage, and of the shared delay queue and error count. *)
  Definition gok (dq : option nat) (e g : nat) (x : gstate) : Prop :=
    match st x with
    | NotAct => local x = [] /\ outbox x = [] /\ act x = 0
    | Running => In g groups /\ 1 <= act x <= 3
    | Delayed => In g groups /\ outbox x = [] /\ 2 <= act x <= 3 /\ dq = Some g /\ synthetic g = true
    | Parked => In g groups /\ (local x = [] /\ outbox x = [] /\ slot x = []) /\ 2 <= act x <= 3
    | Dropped => In g groups /\ local x = [] /\ outbox x = [] /\ 2 <= act x <= 3 /\ e > 0
    end /\ (dq = Some g -> st x = Delayed).

  Definition SInv (s : state) : Prop := forall g, gok (delayq s) (errs s) g (gs s g).

  Lemma gok_frame {dq e g x dq' e'} : gok dq e g x -> (dq' = Some g <-> dq = Some g) -> e <= e' -> gok dq' e' g x.
  Proof.
    intros [G D] [Hd' Hd] He. split; [|intros E; exact (D (Hd' E))].
    destruct (st x); try exact G.
    - intuition.
    - intuition lia.
  Qed.

  Lemma gok_running {dq e g x x'} : gok dq e g x -> st x = Running -> st x' = Running -> act x' = act x -> gok dq e g x'.
  Proof. unfold gok. intros G E -> ->. rewrite E in G. exact G. Qed.

  Lemma gok_stop {dq e g x x'} : gok dq e g x -> st x = Running -> local x' = [] -> outbox x' = [] -> act x' = first_return x ->
    st x' = Dropped /\ e > 0 \/ st x' = Parked /\ slot x' = [] -> gok dq e g x'.
  Proof.
    unfold gok. intros [G D] E L O -> H. rewrite E in *.
    assert (2 <= first_return x <= 3) by (unfold first_return; destruct (Nat.eqb_spec (act x) 1); lia).
    split; [|intros Ed; discriminate (D Ed)]. destruct H as [[-> ?]|[-> ?]]; tauto.
  Qed.

  Lemma gok_active {dq e g x} : gok dq e g x -> st x <> NotAct \/ act x <> 0 -> In g groups.
  Proof. unfold gok. destruct (st x); intuition congruence. Qed.

  Lemma sinv_step s s' : SInv s -> step s s' -> SInv s'.
  Proof.
    intros OK Hs. step_cases Hs; unfold SInv; cbn [gs delayq errs].
    - apply upd_ind.
      + destruct (OK g) as [_ D]. unfold gok. cbn [st local outbox act]. destruct (synthetic g).
        * repeat split; auto.
        * split; [split; [exact Hg|lia]|]. intros E. rewrite (D E) in Hst. discriminate.
      + intros k Hk. apply (gok_frame (OK k)); [|lia].
        destruct (synthetic g); [rewrite Hsy by reflexivity; split; congruence|reflexivity].
    - (* S_handle: the worker keeps running *)
      apply upd_keeps; [apply (gok_running (OK g)); auto|exact OK].
    - assert (OK' : forall k, gok (delayq s) (S (errs s)) k (gs s k))
        by (intros k; apply (gok_frame (OK k)); [reflexivity|lia]).
      apply upd_keeps; [|exact OK']. apply (gok_stop (OK' g)); auto. left. split; [reflexivity|lia].
    - (* S_send_local: the worker keeps running *)
      apply upd_keeps; [apply (gok_running (OK g)); auto|exact OK].
    - subst h s1. rewrite (upd_other _ g _ (grp n)) by assumption.
      apply upd_keeps; [|apply upd_keeps; [apply (gok_running (OK g)); auto|exact OK]].
      (* the receiver: woken if parked, otherwise only its slot grows *)
      destruct (OK (grp n)) as [G D]. split; cbn [st local outbox slot act].
      + destruct (st (gs s (grp n))); try exact G. destruct G as (Hg & _ & Ha). split; [exact Hg|lia].
      + intros E. rewrite (D E). reflexivity.
    - (* S_swap: the worker keeps running *)
      apply upd_keeps; [apply (gok_running (OK g)); auto|exact OK].
    - apply upd_keeps; [|exact OK]. apply (gok_stop (OK g)); auto.
    - (* S_count: the count, then the release if it was the last *)
      assert (S1 : forall k, gok (delayq s) (errs s) k (s1 k)).
      { apply upd_keeps; [|exact OK]. destruct (OK g) as [G D]. split; cbn; [|exact D].
        destruct (st (gs s g)); intuition lia. }
      subst last. destruct (delayq s) as [d|] eqn:Ed; destruct (remaining s =? 1); try exact S1.
      apply upd_ind.
      + destruct (S1 d) as [G D]. rewrite (D eq_refl) in G. split; cbn; [intuition lia|discriminate].
      + intros k Hk. apply (gok_frame (S1 k)); [split; congruence|lia].
  Qed.

  (* One counting argument serves the counter, the potential and the number of unhandled items:
     a summand changes at one key of a duplicate-free list. *)
  Fixpoint total {A} (w : A -> nat) (l : list A) : nat := match l with [] => 0 | a :: t => w a + total w t end.

  Lemma total_ext {A} (w w' : A -> nat) l : (forall x, In x l -> w' x = w x) -> total w' l = total w l.
  Proof. induction l as [|b l IH]; intros H; cbn; [reflexivity|]. rewrite H, IH; auto using in_cons, in_eq. Qed.

  Lemma total_change {A} (w w' : A -> nat) a l : NoDup l -> In a l -> (forall x, x <> a -> w' x = w x) ->
    total w' l + w a = total w l + w' a.
  Proof.
    intros Hnd Hin Hw. induction Hnd as [|b l Hb Hnd IH]; [contradiction|]. cbn.
    destruct Hin as [->|Hin].
    - rewrite (total_ext w w' l) by (intros x Hx; apply Hw; congruence). lia.
    - rewrite (Hw b) by congruence. specialize (IH Hin). lia.
  Qed.

  Lemma total_ge {A} (w : A -> nat) a l : In a l -> w a <= total w l.
  Proof. induction l as [|b l IH]; [contradiction|]. intros [->|H]; cbn; [lia|specialize (IH H); lia]. Qed.

  Lemma total_upd (w : gstate -> nat) f g v : In g groups ->
    total (fun k => w (upd f g v k)) groups + w (f g) = total (fun k => w (f k)) groups + w v.
  Proof.
    intros Hg. pose proof (total_change (fun k => w (f k)) (fun k => w (upd f g v k)) g groups groups_nodup Hg) as E.
    cbn beta in E. rewrite upd_same in E. apply E. intros k Hk. rewrite upd_other by assumption. reflexivity.
  Qed.

  Definition uncounted (x : gstate) : nat := if act x =? 3 then 0 else 1.
  Definition cnt (f : nat -> gstate) : nat := total (fun g => uncounted (f g)) groups.

  Lemma cnt_upd f g v : (act v =? 3) = (act (f g) =? 3) -> cnt (upd f g v) = cnt f.
  Proof.
    intros E. apply total_ext. intros k _.
    apply (upd_keeps (fun k x => uncounted x = uncounted (f k))); [|reflexivity].
    unfold uncounted. rewrite E. reflexivity.
  Qed.

  Lemma cnt_count f g v : In g groups -> act (f g) <> 3 -> act v = 3 -> cnt (upd f g v) + 1 = cnt f.
  Proof.
    intros Hg Hf Hv. pose proof (total_upd uncounted f g v Hg) as E. unfold uncounted at 2 4 in E. rewrite Hv in E.
    destruct (Nat.eqb_spec (act (f g)) 3); [contradiction|]. unfold cnt. cbn in E. lia.
  Qed.

  Definition RInv (s : state) : Prop := remaining s = cnt (gs s) /\ (delayq s <> None -> remaining s > 0).

  Lemma rem_step s s' : SInv s -> RInv s -> step s s' -> RInv s'.
  Proof.
    intros OK [HR HD] Hs.
    (* all steps but the first and the last: no group's [act] gets to 3 or leaves it *)
    assert (Keep : forall f, cnt f = cnt (gs s) -> remaining s = cnt f /\ (delayq s <> None -> remaining s > 0))
      by (intros f E; rewrite E; exact (conj HR HD)).
    step_cases Hs; unfold RInv; cbn [gs delayq remaining].
    - (* S_activate: the group itself is still to be counted *)
      destruct (OK g) as [G _]. rewrite Hst in G. destruct G as (_ & _ & A).
      pose proof (total_ge (fun k => uncounted (gs s k)) g groups Hg) as P.
      unfold uncounted at 1 in P. rewrite A in P.
      split; [|intros _; rewrite HR; exact P].
      rewrite cnt_upd; [exact HR|]. cbn [act]. rewrite A. destruct (synthetic g); reflexivity.
    - apply Keep, cnt_upd. reflexivity.
    - apply Keep, cnt_upd, first_return_3.
    - apply Keep, cnt_upd. reflexivity.
    - apply Keep. subst s1 h. rewrite !cnt_upd; reflexivity.
    - apply Keep, cnt_upd. reflexivity.
    - apply Keep, cnt_upd, first_return_3.
    - assert (E1 : cnt s1 + 1 = cnt (gs s))
        by (apply cnt_count; [apply (gok_active (OK g)); right|..]; cbn; lia).
      subst last. destruct (Nat.eqb_spec (remaining s) 1) as [El|El].
      + split; [|congruence]. destruct (delayq s); [rewrite cnt_upd by reflexivity|]; lia.
      + split; [destruct (delayq s); lia|]. intros X. specialize (HD X). lia.
  Qed.

  Definition pending (s : state) (n : item) : Prop :=
    exists g, In n (local (gs s g)) \/ In n (outbox (gs s g)) \/ In n (slot (gs s g)).

  Lemma pending_init n : ~ pending init n.
  Proof using. intros (g & [H|[H|H]]); exact H. Qed.

  Definition queues (x : gstate) : list item := local x ++ outbox x ++ slot x.
  (* [pending s n] unfolds to [exists g, holds (gs s g) n]; [holds x n] says [In n (queues x)]. *)
  Definition holds (x : gstate) (n : item) : Prop := In n (local x) \/ In n (outbox x) \/ In n (slot x).

  Definition routed (k : nat) (x : gstate) : Prop := forall n, In n (local x) \/ In n (slot x) -> grp n = k.
  Definition RouteInv (s : state) : Prop := forall k, routed k (gs s k).

  Lemma route_step s s' : RouteInv s -> step s s' -> RouteInv s'.
  Proof.
    intros HR Hs. step_cases Hs; unfold RouteInv; cbn [gs].
    - apply upd_keeps; [|exact HR]. intros m [A|A]; [apply roots_route; exact A|apply (HR g); auto].
    - apply upd_keeps; [|exact HR]. intros m [A|A]; apply (HR g); rewrite ?Hl; cbn; auto.
    - apply upd_keeps; [|exact HR]. intros m [[]|A]. apply (HR g). auto.
    - (* S_send_local: the request is the worker's own *)
      apply upd_keeps; [|exact HR]. intros m [[<-|A]|A]; [exact Hn|apply (HR g); auto..].
    - (* S_send: the request goes to the slot of its own group *)
      subst s1 h. rewrite (upd_other _ g _ (grp n)) by assumption.
      apply upd_keeps; [|apply upd_keeps; [exact (HR g)|exact HR]].
      intros m. cbn [local slot]. rewrite in_app_iff. intros [A|[A|[<-|[]]]]; [apply (HR (grp n)); auto..|reflexivity].
    - apply upd_keeps; [|exact HR]. intros m [A|[]]. apply (HR g). auto.
    - apply upd_keeps; [|exact HR]. intros m [[]|[]].
    - intros k. subst s1 last. rewrite count_nf. exact (HR k).
  Qed.

  Definition sound (x : gstate) : Prop := forall n, holds x n -> Reach n.
  Definition SoundInv (s : state) : Prop := (forall n, In n (done s) -> Reach n) /\ forall k, sound (gs s k).

  Lemma sound_step s s' : SoundInv s -> step s s' -> SoundInv s'.
  Proof.
    intros [HD HQ] Hs. unfold sound, holds in HQ. split.
    { (* only S_handle adds a handled item, and it was queued *)
      step_cases Hs; cbn [done]; try exact HD. intros m. destruct (mem i (done s)); [apply HD|].
      intros [<-|A]; [apply (HQ g); rewrite Hl; cbn; auto|apply HD, A]. }
    step_cases Hs; cbn [gs].
    - apply upd_keeps; [|exact HQ]. intros m [A|[[]|A]]; [eapply Reach_root; eassumption|apply (HQ g); auto].
    - (* S_handle: the outbox holds successors of the handled item *)
      apply upd_keeps; [|exact HQ]. intros m [A|[A|A]]; [apply (HQ g); rewrite Hl; cbn; auto| |apply (HQ g); auto].
      destruct (mem i (done s)); [destruct A|]. eapply Reach_succ; [|exact A]. apply (HQ g). rewrite Hl. cbn. auto.
    - apply upd_keeps; [|exact HQ]. intros m [[]|[[]|A]]. apply (HQ g); auto.
    - apply upd_keeps; [|exact HQ]. intros m [[<-|A]|[A|A]]; apply (HQ g); rewrite Ho; cbn; auto.
    - (* S_send: receiver, then sender *)
      subst s1 h. rewrite (upd_other _ g _ (grp n)) by assumption.
      apply upd_keeps; [|apply upd_keeps; [|exact HQ]]; intros m.
      + intros [A|[A|A]]; [apply (HQ (grp n)); auto..|]. apply in_app_iff in A.
        destruct A as [A|[<-|[]]]; [apply (HQ (grp n)); auto|apply (HQ g); rewrite Ho; cbn; auto].
      + intros [A|[A|A]]; apply (HQ g); rewrite Ho; cbn; auto.
    - apply upd_keeps; [|exact HQ]. intros m [A|[[]|[]]]. apply (HQ g). auto.
    - apply upd_keeps; [|exact HQ]. intros m [[]|[[]|[]]].
    - intros k. subst s1 last. rewrite count_nf. exact (HQ k).
  Qed.

  Definition covered (s : state) (n : item) : Prop := In n (done s) \/ pending s n.

  (* where an item queued somewhere is after [g] alone has changed: still queued, or accounted for by [Q] *)
  Lemma pending_upd (f : nat -> gstate) g x m (Q : Prop) :
    (exists k, holds (f k) m) -> (holds (f g) m -> Q \/ holds x m) -> Q \/ exists k, holds (upd f g x k) m.
  Proof.
    intros (k & A) H. destruct (Nat.eq_dec k g) as [->|Hk].
    - destruct (H A) as [B|B]; [left; exact B|right; exists g; rewrite upd_same; exact B].
    - right. exists k. rewrite upd_other by assumption. exact A.
  Qed.

  Lemma cov_mono s s' : SInv s -> step s s' -> errs s' = 0 -> forall m, covered s m -> covered s' m.
  Proof.
    intros OK Hs He m [A|A].
    { (* S_handle alone touches [done], and only adds to it *)
      left. step_cases Hs; cbn [done]; try assumption. destruct (mem i (done s)); [assumption|right; assumption]. }
    change (In m (done s') \/ exists k, holds (gs s' k) m).
    step_cases Hs; cbn [gs done errs] in *.
    - (* S_activate: the local queue and the outbox were empty *)
      apply pending_upd; [exact A|]. unfold holds. cbn.
      destruct (OK g) as [G _]. rewrite Hst in G. destruct G as (-> & -> & _). intros [[]|[[]|B]]. auto.
    - (* S_handle: the handled item is done now *)
      apply pending_upd; [exact A|]. unfold holds. cbn. rewrite Ho, Hl.
      intros [[<-|B]|[[]|B]]; [left|auto..].
      destruct (mem i (done s)) eqn:E; [apply mem_In; exact E|left; reflexivity].
    - (* S_fail: an error *) discriminate.
    - apply pending_upd; [exact A|]. unfold holds. cbn. rewrite Ho. intros [B|[[<-|B]|B]]; auto.
    - (* S_send: the request is in nobody's queue between leaving [g] and arriving *)
      assert (B : m = n \/ exists k, holds (s1 k) m).
      { apply pending_upd; [exact A|]. unfold holds. cbn. rewrite Ho. intros [B|[[<-|B]|B]]; auto. }
      destruct B as [->|B]; [right; exists h; rewrite upd_same|apply pending_upd; [exact B|]].
      all: unfold holds; cbn; rewrite in_app_iff.
      + cbn. auto.
      + intros [B'|[B'|B']]; auto.
    - apply pending_upd; [exact A|]. unfold holds. cbn. rewrite Ho, Hl. intros [[]|[[]|B]]. auto.
    - (* S_park: all three queues were empty *)
      apply pending_upd; [exact A|]. unfold holds. cbn. rewrite Ho, Hl, Hsl. intros [[]|[[]|[]]].
    - right. destruct A as (k & A). exists k. subst s1 last. rewrite count_nf. exact A.
  Qed.

  Lemma errs_mono s s' : step s s' -> errs s' = 0 -> errs s = 0.
  Proof. intros Hs. step_cases Hs; cbn [errs]; auto. discriminate. Qed.

  Definition rooted (C : item -> Prop) (k : nat) (x : gstate) : Prop := st x <> NotAct -> forall r, In r (roots k) -> C r.

  (* without errors, what has been asked for is done or queued: the roots of an activated group, the requests of a
     handled item *)
  Definition CompInv (s : state) : Prop := errs s = 0 ->
    (forall k, rooted (covered s) k (gs s k)) /\ (forall i n, In i (done s) -> In n (succ i) -> covered s n).

  Lemma comp_step s s' : SInv s -> CompInv s -> step s s' -> CompInv s'.
  Proof.
    intros OK HC Hs He'. destruct (HC (errs_mono _ _ Hs He')) as [C1 C2]. pose proof (cov_mono _ _ OK Hs He') as Mono.
    assert (F : forall k, rooted (covered s') k (gs s k)) by (intros k Hk r Hr; apply Mono, (C1 k); assumption).
    (* a group that was running had been activated before the step, whatever its record is afterwards *)
    assert (Run : forall g x, st (gs s g) = Running -> forall k, rooted (covered s') k (upd (gs s) g x k)).
    { intros g x E. apply upd_keeps; [|exact F]. intros _ r Hr. apply Mono, (C1 g); [congruence|exact Hr]. }
    assert (D : forall i n, In i (done s) -> In n (succ i) -> covered s' n)
      by (intros i n Hi Hn; apply Mono, (C2 i); assumption).
    clear HC C1 C2 Mono. split.
    2:{ (* only S_handle adds a handled item: its requests are in the outbox *)
      step_cases Hs; cbn [done]; try exact D.
      intros i0 n0 Hi Hn0. destruct (mem i (done s)); [eapply D; eassumption|]. destruct Hi as [<-|Hi]; [|eapply D; eassumption].
      right. exists g. cbn [gs]. rewrite upd_same. right. left. exact Hn0. }
    step_cases Hs; cbn [gs].
    - (* S_activate: the roots are in the local queue *)
      apply upd_keeps; [|exact F]. intros _ r Hr. right. exists g. cbn [gs]. rewrite upd_same. left. exact Hr.
    - exact (Run g _ Hst).
    - exact (Run g _ Hst).
    - exact (Run g _ Hst).
    - (* S_send: the receiver's status does not leave NotAct *)
      apply upd_keeps; [|exact (Run g _ Hst)].
      intros E. refine (F h _). cbn in E. unfold s1 in E. rewrite upd_other in E by assumption.
      destruct (st (gs s h)); congruence.
    - exact (Run g _ Hst).
    - exact (Run g _ Hst).
    - (* S_count: nor does the counted one's, and the released group was Delayed *)
      intros k. subst s1 last. rewrite count_nf. intros E. apply (F k). intros N. apply E. cbn [st].
      destruct (delayq s) as [d|] eqn:Ed; [|exact N]. destruct (remaining s =? 1); [|exact N].
      destruct (Nat.eqb_spec k d) as [Ek|_]; [|exact N]. rewrite Ek, (proj2 (OK d) Ed) in N. discriminate.
  Qed.

  Record Inv (s : state) : Prop := {
    inv_s : SInv s; inv_rem : RInv s; inv_route : RouteInv s; inv_sound : SoundInv s; inv_comp : CompInv s }.

  (* Stated, like the theorems below, under all five hypotheses of the section.  Of the five steps rem_step uses
     groups_nodup, route_step roots_route, comp_step item_eqb_spec, the other two none; grp_ok is used only by
     step_decreases and terminal_closure, one_synthetic only by terminal_closure. *)
  Theorem inv_reachable s : reachable s -> Inv s.
  Proof using item_eqb_spec groups_nodup grp_ok one_synthetic roots_route.
    induction 1 as [|s s' _ [A B C D E] Hs].
    - split.
      + intros g. split; [cbn; auto|discriminate].
      + split; [|intros []; reflexivity]. cbn. unfold cnt. clear.
        induction groups as [|a l IH]; cbn; [reflexivity|f_equal; exact IH].
      + intros g n [[]|[]].
      + split; [intros n []|intros g n [[]|[[]|[]]]].
      + intros _. split; [intros g H; cbn in H; congruence|intros i n []].
    - split; [eapply sinv_step|eapply rem_step|eapply route_step|eapply sound_step|eapply comp_step]; eassumption.
  Qed.

  Theorem no_lost_work s g : reachable s -> slot (gs s g) <> [] -> st (gs s g) <> Parked.
  Proof using item_eqb_spec groups_nodup grp_ok one_synthetic roots_route.
    intros Hr Hne E. destruct (inv_s _ (inv_reachable s Hr) g) as [G _]. rewrite E in G. apply Hne, G.
  Qed.

  Theorem requests_are_routed s g n : reachable s -> In n (local (gs s g)) \/ In n (slot (gs s g)) -> grp n = g.
  Proof using item_eqb_spec groups_nodup grp_ok one_synthetic roots_route.
    intros Hr. apply (inv_route _ (inv_reachable s Hr)).
  Qed.

  Lemma running_can_step s g : st (gs s g) = Running -> exists s', step s s'.
  Proof.
    intros E. destruct (outbox (gs s g)) as [|n rest] eqn:Eo.
    - destruct (local (gs s g)) as [|i l] eqn:El.
      + destruct (slot (gs s g)) as [|x sl] eqn:Es.
        * eexists. eapply S_park; eassumption.
        * eexists. eapply S_swap; try eassumption. rewrite Es. discriminate.
      + eexists. eapply S_handle; eassumption.
    - destruct (Nat.eq_dec (grp n) g) as [En|En].
      + eexists. eapply S_send_local; eassumption.
      + eexists. eapply S_send; eassumption.
  Qed.

  Theorem terminal_closure s : reachable s -> terminal item item_eqb grp succ roots synthetic groups s -> errs s = 0 ->
    (forall g, In g groups -> st (gs s g) = Parked /\ queues (gs s g) = []) /\
    remaining s = 0 /\ delayq s = None /\
    (forall n, Reach n <-> In n (done s)).
  Proof using item_eqb_spec groups_nodup grp_ok one_synthetic roots_route.
    intros Hr Ht He. destruct (inv_reachable s Hr) as [OK [HR HD] HRt [SD SQ] HC].
    assert (NoRun : forall g, st (gs s g) <> Running)
      by (intros g E; destruct (running_can_step s g E) as [s' Hs]; exact (Ht s' Hs)).
    (* every group has been activated, and counted: otherwise S_activate or S_count is enabled *)
    assert (All3 : forall g, In g groups -> st (gs s g) <> NotAct /\ act (gs s g) = 3).
    { intros g Hg.
      assert (NA : st (gs s g) <> NotAct).
      { intros E. eapply Ht, S_activate; try eassumption. intros Hsy.
        (* what the delay queue holds is synthetic too, so it is [g], and Delayed *)
        destruct (delayq s) as [d|] eqn:Ed; [|reflexivity]. destruct (OK d) as [Gd Dd]. rewrite (Dd Ed) in Gd.
        rewrite (one_synthetic g d Hsy) in E by apply Gd. rewrite (Dd Ed) in E. discriminate. }
      assert (N2 : act (gs s g) <> 2) by (intros E; eapply Ht, S_count, E).
      split; [exact NA|]. destruct (OK g) as [G _]. specialize (NoRun g). destruct (st (gs s g)); try congruence; lia. }
    assert (Rem0 : remaining s = 0).
    { rewrite HR. unfold cnt. rewrite (total_ext (fun _ => 0)); [clear; induction groups; auto|].
      intros g Hg. unfold uncounted. rewrite (proj2 (All3 g Hg)). reflexivity. }
    assert (DqN : delayq s = None).
    { destruct (delayq s); [|reflexivity]. assert (remaining s > 0) by (apply HD; discriminate). lia. }
    assert (Empty : forall g, queues (gs s g) = [] /\ (In g groups -> st (gs s g) = Parked)).
    { intros g. destruct (OK g) as [G D]. specialize (NoRun g). unfold queues. destruct (st (gs s g)) eqn:E; try congruence.
      - (* outside [groups]: nobody sends there *)
        split; [|intros Hg; destruct (All3 g Hg); congruence]. destruct G as (-> & -> & _).
        destruct (slot (gs s g)) as [|n sl] eqn:Es; [reflexivity|]. destruct (All3 (grp n) (grp_ok n)) as [N _].
        rewrite (HRt g n) in N by (rewrite Es; cbn; auto). congruence.
      - (* Delayed: but the delay queue is empty *) destruct G as (_ & _ & _ & G & _). congruence.
      - destruct G as (_ & (-> & -> & ->) & _). auto.
      - (* Dropped: but there was no error *) lia. }
    split; [intros g Hg; split; apply Empty; assumption|]. split; [exact Rem0|]. split; [exact DqN|].
    assert (Cov : forall n, covered s n -> In n (done s)).
    { intros n [A|(g & A)]; [exact A|]. exfalso. apply in_nil with (a := n). rewrite <- (proj1 (Empty g)). unfold queues.
      rewrite !in_app_iff. exact A. }
    destruct (HC He) as [C1 C2]. intros n. split; [|apply SD].
    induction 1 as [g i Hg Hi|i n Hi IH Hn]; apply Cov; [apply (C1 g); [apply All3; exact Hg|exact Hi]|apply (C2 i); assumption].
  Qed.

  Variable items : list item.
  Hypothesis items_nodup : NoDup items.
  Hypothesis items_all : forall i, In i items.
  Variable msucc mroots : nat.
  Hypothesis msucc_ok : forall i, length (succ i) <= msucc.
  Hypothesis mroots_ok : forall g, length (roots g) <= mroots.

  (* What each weight pays for.  Not activated, mroots + 2: activation queues at most mroots roots and may set the worker
     running (1).  Running, 1: to park or drop the worker is a step.  A local item, 1: to handle it is a step, and the at
     most msucc requests it leaves in the outbox are paid, once per item, by [undone] (4 * msucc + 1 in Phi).  An outbox
     item, 4: sent, it is a local item (1), or a slot item (2) that may have woken the receiver (1).  A slot item, 2:
     swapped in, it is a local item (1).  Not counted, 2: to count is a step, and the last count sets the delayed group
     running (1). *)
  Definition phi (x : gstate) : nat :=
    (match st x with NotAct => mroots + 2 | Running => 1 | _ => 0 end) +
    length (local x) + 4 * length (outbox x) + 2 * length (slot x) + (if Nat.eqb (act x) 3 then 0 else 2).

  Fixpoint gsum (f : nat -> gstate) (l : list nat) : nat :=
    match l with [] => 0 | g :: t => phi (f g) + gsum f t end.

  Definition undone (d : list item) : nat := length (filter (fun x => negb (mem x d)) items).
  Definition Phi (s : state) : nat := gsum (gs s) groups + (4 * msucc + 1) * undone (done s).

  Lemma gsum_total f l : gsum f l = total (fun k => phi (f k)) l.
  Proof. induction l; cbn; auto. Qed.

  Lemma gsum_upd f g v : In g groups -> gsum (upd f g v) groups + phi (f g) = gsum f groups + phi v.
  Proof. intros Hg. rewrite !gsum_total. apply total_upd, Hg. Qed.

  (* the two shapes of a step: one group changes, or two in turn *)
  Lemma gsum_upd_lt f g v a b : In g groups -> phi v + a < phi (f g) + b -> gsum (upd f g v) groups + a < gsum f groups + b.
  Proof. intros Hg. pose proof (gsum_upd f g v Hg). lia. Qed.

  Lemma gsum_upd2_lt f g v h w a b : In g groups -> In h groups ->
    phi w + phi v + a < phi (upd f g v h) + phi (f g) + b -> gsum (upd (upd f g v) h w) groups + a < gsum f groups + b.
  Proof. intros Hg Hh. pose proof (gsum_upd f g v Hg). pose proof (gsum_upd (upd f g v) h w Hh). lia. Qed.

  Lemma undone_add i d : mem i d = false -> undone (i :: d) + 1 = undone d.
  Proof.
    intros Hm. assert (T : forall p (l : list item), length (filter p l) = total (fun x => if p x then 1 else 0) l).
    { intros p l. induction l as [|a l IH]; cbn; [reflexivity|]. destruct (p a); cbn; rewrite IH; reflexivity. }
    unfold undone. rewrite !T.
    pose proof (total_change (fun x => if negb (mem x d) then 1 else 0) (fun x => if negb (mem x (i :: d)) then 1 else 0)
                  i items items_nodup (items_all i)) as E.
    cbn beta in E. rewrite Hm in E. replace (mem i (i :: d)) with true in E by (symmetry; apply mem_In; left; reflexivity).
    cbn [negb] in E. rewrite E; [lia|]. intros x Hx. unfold Model.mem. cbn [existsb].
    destruct (item_eqb_spec x i); [contradiction|reflexivity].
  Qed.

  Theorem step_decreases s s' : SInv s -> step s s' -> Phi s' < Phi s.
  Proof.
    intros OK Hs.
    assert (Run : forall g, st (gs s g) = Running -> In g groups)
      by (intros g E; apply (gok_active (OK g)); left; congruence).
    step_cases Hs; unfold Phi; cbn [gs done].
    - apply gsum_upd_lt; [exact Hg|]. unfold phi. cbn [st local outbox slot act]. rewrite Hst.
      destruct (OK g) as [G _]. rewrite Hst in G. destruct G as (-> & -> & ->).
      pose proof (mroots_ok g). destruct (synthetic g); cbn; lia.
    - (* S_handle.  A new item: the weight of its requests is paid by [undone] *)
      apply gsum_upd_lt; [exact (Run g Hst)|]. unfold phi. cbn [st local outbox slot act]. rewrite Hst, Ho, Hl. cbn [length].
      destruct (mem i (done s)) eqn:Em; [cbn [length]; lia|].
      rewrite <- (undone_add i (done s) Em). pose proof (msucc_ok i). lia.
    - apply gsum_upd_lt; [exact (Run g Hst)|]. unfold phi. cbn [st local outbox slot act].
      rewrite first_return_3, Hst, Ho, Hl. cbn [length]. lia.
    - apply gsum_upd_lt; [exact (Run g Hst)|]. unfold phi. cbn [st local outbox slot act]. rewrite Hst, Ho. cbn [length]. lia.
    - (* S_send: 4 off the sender's outbox; 2 on the receiver's slot and at most 1 for waking it *)
      apply gsum_upd2_lt; [exact (Run g Hst)|apply grp_ok|]. fold s1. unfold phi. cbn [st local outbox slot act].
      rewrite Hst, Ho, app_length. cbn [length]. destruct (st (s1 h)); lia.
    - (* S_swap: the slot is not empty *)
      apply gsum_upd_lt; [exact (Run g Hst)|]. unfold phi. cbn [st local outbox slot act]. rewrite Hst, Ho, Hl.
      destruct (slot (gs s g)); [contradiction|]. cbn [length]. lia.
    - apply gsum_upd_lt; [exact (Run g Hst)|]. unfold phi. cbn [st local outbox slot act].
      rewrite first_return_3, Hst, Ho, Hl, Hsl. cbn [length]. lia.
    - assert (Hg : In g groups) by (apply (gok_active (OK g)); right; lia).
      (* counting sets 2 free *)
      assert (Cnt : gsum s1 groups + (4 * msucc + 1) * undone (done s) < gsum (gs s) groups + (4 * msucc + 1) * undone (done s))
        by (apply gsum_upd_lt; [exact Hg|]; unfold phi; cbn [st local outbox slot act]; rewrite Ha; cbn; lia).
      subst last. destruct (delayq s) as [d|] eqn:Ed; [|exact Cnt]. destruct (remaining s =? 1); [|exact Cnt].
      (* the released group pays 1 of them *)
      destruct (OK d) as [G D]. specialize (D Ed). rewrite D in G.
      assert (E : st (s1 d) = Delayed) by (unfold s1; rewrite count_upd; exact D).
      apply gsum_upd2_lt; [exact Hg|apply G|]. fold s1. unfold phi, set_st. cbn [st local outbox slot act].
      rewrite Ha, E. cbn. lia.
  Qed.

  Inductive steps : nat -> state -> state -> Prop :=
  | steps_0 s : steps 0 s s
  | steps_S n s s1 s2 : step s s1 -> steps n s1 s2 -> steps (S n) s s2.

  Theorem every_run_finite n s s' : reachable s -> steps n s s' -> n <= Phi s.
  Proof using item_eqb_spec groups_nodup grp_ok one_synthetic roots_route items_nodup items_all msucc_ok mroots_ok.
    intros Hr Hst. induction Hst as [s|n s s1 s2 H1 H2 IH]; [lia|].
    pose proof (step_decreases s s1 (inv_s _ (inv_reachable s Hr)) H1).
    assert (Hr1 : reachable s1) by (eapply R_step; eassumption). specialize (IH Hr1). lia.
  Qed.
End Proofs.
