(* C39 (and the reference-graph half of C05) — property theorems only.
   Everything is quantified over: any item type with decidable equality, any routing function, any successor (request)
   relation, any roots, any number of groups, any position of the synthetic group — and every interleaving, because the
   statements are about all [reachable] states of the transition system. *)
From Coq Require Import List Bool.
Import ListNotations.
From WV Require Import C39.Model C39.Proofs.

Section Statements.
  Variable item : Type.
  Variable item_eqb : item -> item -> bool.
  Hypothesis item_eqb_spec : forall a b, reflect (a = b) (item_eqb a b).
  Variable grp : item -> nat.
  Variable succ : item -> list item.
  Variable roots : nat -> list item.
  Variable synthetic : nat -> bool.
  Variable groups : list nat.
  Hypothesis groups_nodup : NoDup groups.
  Hypothesis grp_ok : forall i, In (grp i) groups.
  Hypothesis one_synthetic : forall g h, synthetic g = true -> synthetic h = true -> g = h.
  Hypothesis roots_route : forall g r, In r (roots g) -> grp r = g.

  Notation reachable := (reachable item item_eqb grp succ roots synthetic groups).

  (* no lost wake-up: work sitting in a group's slot is never stranded behind a parked worker *)
  Theorem C39_no_lost_work : forall s g, reachable s -> slot (gs s g) <> [] -> st (gs s g) <> Parked.
  Proof. exact (no_lost_work item item_eqb item_eqb_spec grp succ roots synthetic groups groups_nodup grp_ok one_synthetic roots_route). Qed.

  (* every request is queued at (and only at) the group that must handle it *)
  Theorem C39_requests_are_routed : forall s g n, reachable s -> In n (local (gs s g)) \/ In n (slot (gs s g)) -> grp n = g.
  Proof. exact (requests_are_routed item item_eqb item_eqb_spec grp succ roots synthetic groups groups_nodup grp_ok one_synthetic roots_route). Qed.

  (* whatever the schedule: when nothing more can happen and no error was reported, every group is parked with empty queues,
     the activation counter is 0, the delay queue is empty, and the handled set is EXACTLY the closure of the roots *)
  Theorem C39_terminal_closure : forall s, reachable s -> terminal item item_eqb grp succ roots synthetic groups s -> errs s = 0 ->
    (forall g, In g groups -> st (gs s g) = Parked /\ queues item (gs s g) = []) /\
    remaining s = 0 /\ delayq s = None /\
    (forall n, Reach item succ roots groups n <-> In n (done s)).
  Proof. exact (terminal_closure item item_eqb item_eqb_spec grp succ roots synthetic groups groups_nodup grp_ok one_synthetic roots_route). Qed.

  (* termination: every step strictly decreases a natural-number potential, so every run is finite *)
  Variable items : list item.
  Hypothesis items_nodup : NoDup items.
  Hypothesis items_all : forall i, In i items.
  Variable msucc mroots : nat.
  Hypothesis msucc_ok : forall i, length (succ i) <= msucc.
  Hypothesis mroots_ok : forall g, length (roots g) <= mroots.

  Theorem C39_every_run_finite : forall n s s', reachable s ->
    steps item item_eqb grp succ roots synthetic groups n s s' ->
    n <= Phi item item_eqb groups items msucc mroots s.
  Proof.
    exact (every_run_finite item item_eqb item_eqb_spec grp succ roots synthetic groups groups_nodup grp_ok one_synthetic
             roots_route items items_nodup items_all msucc mroots msucc_ok mroots_ok).
  Qed.
End Statements.

Print Assumptions C39_no_lost_work.
Print Assumptions C39_requests_are_routed.
Print Assumptions C39_terminal_closure.
Print Assumptions C39_every_run_finite.
