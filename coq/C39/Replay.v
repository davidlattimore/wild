(* C39 — trace validation: replays the event log recorded by the verif_hooks build (one event per critical section of
   layout.rs) against the protocol part of the transition system of Model.v (item lists abstracted to counts).
   Every event must be an enabled step with the recorded effect; the end-of-phase snapshot must be the terminal state
   that C39_terminal_closure talks about. *)
From Coq Require Import List Bool PeanoNat.
Import ListNotations.

Inductive pst := PNot | PRun | PDelayed | PParked | PDropped.
Record pg := { p_st : pst; p_slot : nat; p_act : nat }.
Record pstate := { p_g : nat -> pg; p_rem : nat; p_dq : option nat; p_errs : nat }.

Definition pupd (f : nat -> pg) (g : nat) (x : pg) : nat -> pg := fun h => if Nat.eqb h g then x else f h.
Definition pinit (n : nat) : pstate :=
  {| p_g := fun _ => {| p_st := PNot; p_slot := 0; p_act := 0 |}; p_rem := n; p_dq := None; p_errs := 0 |}.
Definition pst_eqb (a b : pst) : bool :=
  match a, b with PNot, PNot | PRun, PRun | PDelayed, PDelayed | PParked, PParked | PDropped, PDropped => true | _, _ => false end.
Definition first_ret (a : nat) : nat := if Nat.eqb a 1 then 2 else a.

(* event = (kind, a, b); returns None if the event is not an enabled step of the model *)
Definition pstep (s : pstate) (e : nat * nat * nat) : option pstate :=
  let '(k, a, b) := e in
  let x := p_g s a in
  match k with
  | 1 => (* Activate a *)
      if pst_eqb (p_st x) PNot
      then Some {| p_g := pupd (p_g s) a {| p_st := PRun; p_slot := p_slot x; p_act := 1 |}; p_rem := p_rem s; p_dq := p_dq s; p_errs := p_errs s |}
      else None
  | 2 => (* the synthetic group goes to the delay queue (capacity 1) *)
      if pst_eqb (p_st x) PRun && Nat.eqb (p_act x) 1 && match p_dq s with None => true | Some _ => false end
      then Some {| p_g := pupd (p_g s) a {| p_st := PDelayed; p_slot := p_slot x; p_act := 2 |}; p_rem := p_rem s; p_dq := Some a; p_errs := p_errs s |}
      else None
  | 3 => (* Count a, remaining afterwards = b *)
      if Nat.eqb (p_act x) 2 && Nat.eqb (S b) (p_rem s)
      then Some {| p_g := pupd (p_g s) a {| p_st := p_st x; p_slot := p_slot x; p_act := 3 |}; p_rem := b; p_dq := p_dq s; p_errs := p_errs s |}
      else None
  | 4 => (* the delayed group is released: only by the last activation *)
      match p_dq s with
      | Some d => if Nat.eqb d a && Nat.eqb (p_rem s) 0 && pst_eqb (p_st x) PDelayed
                  then Some {| p_g := pupd (p_g s) a {| p_st := PRun; p_slot := p_slot x; p_act := p_act x |}; p_rem := p_rem s; p_dq := None; p_errs := p_errs s |}
                  else None
      | None => None
      end
  | 5 => (* handler error: the worker is dropped *)
      if pst_eqb (p_st x) PRun
      then Some {| p_g := pupd (p_g s) a {| p_st := PDropped; p_slot := p_slot x; p_act := first_ret (p_act x) |}; p_rem := p_rem s; p_dq := p_dq s; p_errs := S (p_errs s) |}
      else None
  | 6 => (* Park: only with an empty slot *)
      if pst_eqb (p_st x) PRun && Nat.eqb (p_slot x) 0
      then Some {| p_g := pupd (p_g s) a {| p_st := PParked; p_slot := 0; p_act := first_ret (p_act x) |}; p_rem := p_rem s; p_dq := p_dq s; p_errs := p_errs s |}
      else None
  | 7 => (* Swap: takes the b > 0 queued items *)
      if pst_eqb (p_st x) PRun && Nat.eqb (p_slot x) b && negb (Nat.eqb b 0)
      then Some {| p_g := pupd (p_g s) a {| p_st := PRun; p_slot := 0; p_act := p_act x |}; p_rem := p_rem s; p_dq := p_dq s; p_errs := p_errs s |}
      else None
  | 8 => (* Send to a: the parked worker is taken iff there is one (b = 1) *)
      if Bool.eqb (pst_eqb (p_st x) PParked) (Nat.eqb b 1)
      then Some {| p_g := pupd (p_g s) a {| p_st := match p_st x with PParked => PRun | y => y end; p_slot := S (p_slot x); p_act := p_act x |};
                   p_rem := p_rem s; p_dq := p_dq s; p_errs := p_errs s |}
      else None
  | _ => None
  end.

Fixpoint preplay (s : pstate) (es : list (nat * nat * nat)) (i : nat) : pstate + nat :=
  match es with
  | [] => inl s
  | e :: t => match pstep s e with Some s' => preplay s' t (S i) | None => inr i end
  end.

(* final snapshot: (group, slot length, worker present) for every group, and the number of errors *)
Definition final_ok (s : pstate) (ngroups nerrs : nat) (snap : list (nat * nat * bool)) : bool :=
  Nat.leb (p_errs s) nerrs && Nat.eqb (length snap) ngroups &&
  forallb (fun '(g, len, worker) =>
             Nat.eqb (p_slot (p_g s g)) len && Bool.eqb (pst_eqb (p_st (p_g s g)) PParked) worker) snap &&
  (if Nat.eqb (p_errs s) 0      (* no worker was dropped: errors reported without dropping a worker do not affect the protocol *)
   then Nat.eqb (p_rem s) 0 && match p_dq s with None => true | Some _ => false end &&
        forallb (fun '(g, len, worker) => Nat.eqb len 0 && worker && Nat.eqb (p_act (p_g s g)) 3) snap
   else true).

(* 0 = accepted; S k = event k rejected; ngroups+1000000 style codes are avoided: second component tells *)
Definition validate (ngroups nerrs : nat) (es : list (nat * nat * nat)) (snap : list (nat * nat * bool)) : nat * nat :=
  match preplay (pinit ngroups) es 0 with
  | inr i => (1, i)
  | inl s => if final_ok s ngroups nerrs snap then (0, 0) else (2, 0)
  end.

(* the invariant the protocol theorem is about, on accepted traces: a parked group never has queued work *)
Definition pinv (s : pstate) : Prop := forall g, p_st (p_g s g) = PParked -> p_slot (p_g s g) = 0.

Lemma pstep_inv s e s' : pinv s -> pstep s e = Some s' -> pinv s'.
Proof.
  intros HI H. destruct e as [[k a] b].
  (* every event rewrites the record of group [a] only: the new record must not be parked, or have an empty slot *)
  assert (Upd : forall x r dq er, (p_st x = PParked -> p_slot x = 0) ->
                  pinv {| p_g := pupd (p_g s) a x; p_rem := r; p_dq := dq; p_errs := er |}).
  { intros x r dq er Hx g. cbn [p_g]. unfold pupd. destruct (Nat.eqb g a); [exact Hx|apply HI]. }
  unfold pstep in H. destruct k as [|[|[|[|[|[|[|[|[|k]]]]]]]]]; try discriminate.
  - destruct (pst_eqb _ _); [|discriminate]. injection H as <-. apply Upd. discriminate.
  - destruct (_ && _); [|discriminate]. injection H as <-. apply Upd. discriminate.
  - (* 3, Count: status and slot stay *)
    destruct (_ && _); [|discriminate]. injection H as <-. apply Upd. exact (HI a).
  - destruct (p_dq s); [|discriminate]. destruct (_ && _); [|discriminate]. injection H as <-. apply Upd. discriminate.
  - destruct (pst_eqb _ _); [|discriminate]. injection H as <-. apply Upd. discriminate.
  - (* 6, Park: with an empty slot *)
    destruct (_ && _); [|discriminate]. injection H as <-. apply Upd. reflexivity.
  - destruct (_ && _); [|discriminate]. injection H as <-. apply Upd. discriminate.
  - (* 8, Send: a parked group is woken *)
    destruct (Bool.eqb _ _); [|discriminate]. injection H as <-. apply Upd. cbn. destruct (p_st (p_g s a)); discriminate.
Qed.

Theorem accepted_traces_keep_invariant n es : forall s, preplay (pinit n) es 0 = inl s -> pinv s.
Proof.
  assert (I : pinv (pinit n)) by (intros g Hg; discriminate).
  revert I. generalize (pinit n) 0.
  induction es as [|e t IH]; intros s0 i I s H; cbn in H; [injection H as <-; assumption|].
  destruct (pstep s0 e) eqn:E; [|discriminate]. eapply IH; [eapply pstep_inv; eassumption|eassumption].
Qed.
