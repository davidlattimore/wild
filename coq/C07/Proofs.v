From Coq Require Import NArith List Bool Arith Lia.
From WV Require Import Base.ListX C07.Model.
Import ListNotations.

Lemma memchr0_some l k : memchr0 l = Some k ->
  k < length l /\ nth k l 1%N = 0%N /\ forall j, j < k -> nth j l 1%N <> 0%N.
Proof.
  revert k. induction l as [|b t IH]; intros k H; [discriminate|]. cbn [memchr0] in H.
  destruct (N.eqb_spec b 0) as [E|E].
  - injection H as <-. cbn. repeat split; [lia|exact E|lia].
  - destruct (memchr0 t) as [k'|]; [|discriminate]. injection H as <-.
    destruct (IH k' eq_refl) as (H1 & H2 & H3). cbn [length nth]. repeat split; [lia|exact H2|].
    intros j Hj. destruct j; [exact E|]. apply H3. lia.
Qed.
Lemma memchr0_none l : memchr0 l = None -> forall j, j < length l -> nth j l 1%N <> 0%N.
Proof.
  induction l as [|b t IH]; intros H j Hj; [cbn in Hj; lia|]. cbn [memchr0] in H.
  destruct (N.eqb_spec b 0) as [E|E]; [discriminate|]. destruct (memchr0 t) eqn:Em; [discriminate|].
  destruct j; [exact E|]. apply IH; [reflexivity|cbn in Hj; lia].
Qed.

Definition start_or_end (data : list N) (p : nat) : Prop := p = length data \/ is_start data p.

Lemma start_or_end_le data p : start_or_end data p -> p <= length data.
Proof. intros [->|[H _]]; [reflexivity|exact (Nat.lt_le_incl _ _ H)]. Qed.

Lemma start_after_nul data p : 0 < p <= length data -> nth (p - 1) data 1%N = 0%N -> start_or_end data p.
Proof. intros Hp Hz. destruct (Nat.eq_dec p (length data)) as [E|E]; [left; exact E|right; split; [lia|right; exact Hz]]. Qed.

Lemma no_start_over_nonzero data pos n : (forall j, j < n -> nth j (skipn pos data) 1%N <> 0%N) ->
  forall p, is_start data p -> pos < p -> pos + n < p.
Proof.
  intros Hnz p [_ [Hp0|Hpz]] Hlt; [lia|]. destruct (le_lt_dec p (pos + n)) as [H|H]; [exfalso|exact H].
  apply (Hnz (p - 1 - pos)); [lia|]. rewrite nth_skipn. replace (pos + (p - 1 - pos)) with (p - 1) by lia. exact Hpz.
Qed.

(* where the string that covers [pos] ends: both [advance] and a step of [loop] move there *)
Definition after (data : list N) (pos : nat) : nat :=
  match memchr0 (skipn pos data) with Some k => pos + k + 1 | None => length data end.

Lemma after_spec data pos : pos <= length data ->
  pos <= after data pos /\ start_or_end data (after data pos) /\ forall p, is_start data p -> pos < p -> after data pos <= p.
Proof.
  intros Hpos. unfold after. destruct (memchr0 (skipn pos data)) as [k|] eqn:Em.
  - destruct (memchr0_some _ _ Em) as (Hk & Hz & Hnz). rewrite skipn_length in Hk. rewrite nth_skipn in Hz.
    split; [lia|]. split.
    + apply start_after_nul; [lia|]. rewrite Nat.add_sub. exact Hz.
    + intros p Hp Hlt. pose proof (no_start_over_nonzero data pos k Hnz p Hp Hlt). lia.
  - split; [exact Hpos|]. split; [left; reflexivity|]. intros p Hp Hlt.
    pose proof (no_start_over_nonzero data pos _ (memchr0_none _ Em) p Hp Hlt) as H. rewrite skipn_length in H. lia.
Qed.

Lemma take_len_after data pos n : take_len (skipn pos data) = Some n -> after data pos = pos + n /\ 0 < n.
Proof. unfold take_len, after. destruct (memchr0 (skipn pos data)); [|discriminate]. intros [= <-]. lia. Qed.

Definition enumerates (data : list N) (lo hi : nat) (l : list nat) : Prop :=
  (forall p, In p l <-> (is_start data p /\ lo <= p < hi)) /\ NoDup l.

Lemma enumerates_nil data lo hi : (forall p, is_start data p -> lo <= p < hi -> False) -> enumerates data lo hi [].
Proof. intros H. split; [|constructor]. intros p. split; [intros []|]. intros [Hs Hr]. exact (H p Hs Hr). Qed.

Lemma enumerates_cons data lo mid hi l :
  is_start data lo -> lo < hi -> lo < mid -> (forall p, is_start data p -> lo < p -> mid <= p) ->
  enumerates data mid hi l -> enumerates data lo hi (lo :: l).
Proof.
  intros Hs Hhi Hmid Hgap [Hin Hnd]. split.
  - intros p. cbn [In]. rewrite Hin. split.
    + intros [<-|[Hp Hr]]; (split; [assumption|lia]).
    + intros [Hp Hr]. destruct (Nat.eq_dec lo p) as [E|E]; [left; exact E|right]. specialize (Hgap p Hp). split; [exact Hp|lia].
  - constructor; [|exact Hnd]. intros Hc. apply Hin in Hc. lia.
Qed.

Lemma enumerates_app data lo mid hi l1 l2 : lo <= mid <= hi ->
  enumerates data lo mid l1 -> enumerates data mid hi l2 -> enumerates data lo hi (l1 ++ l2).
Proof.
  intros Hm [Hin1 Hnd1] [Hin2 Hnd2]. split.
  - intros p. rewrite in_app_iff, Hin1, Hin2. split.
    + intros [[Hs Hr]|[Hs Hr]]; (split; [exact Hs|lia]).
    + intros [Hs Hr]. destruct (le_lt_dec mid p); [right|left]; (split; [exact Hs|lia]).
  - apply NoDup_app; [exact Hnd1|exact Hnd2|]. intros p Hp Hp'. apply Hin1 in Hp. apply Hin2 in Hp'. lia.
Qed.

Lemma loop_spec data hi : forall fuel pos l,
  length data <= pos + fuel -> start_or_end data pos ->
  loop fuel (skipn pos data) pos hi = Some l -> enumerates data pos hi l.
Proof.
  induction fuel as [|f IH]; intros pos l Hf Hs H.
  { injection H as <-. apply enumerates_nil. intros p [Hlt _] Hr. lia. }
  cbn [loop] in H. pose proof (skipn_length pos data) as Hlen.
  destruct (skipn pos data) as [|b t] eqn:Es; cbn [length] in Hlen.
  { injection H as <-. apply enumerates_nil. intros p [Hlt _] Hr. lia. }
  destruct (Nat.ltb_spec pos hi) as [Hlt|Hge]; [|injection H as <-; apply enumerates_nil; intros p _ Hr; lia].
  rewrite <- Es in H. destruct (take_len (skipn pos data)) as [n|] eqn:En; [|discriminate].
  apply take_len_after in En. destruct En as [En Hn]. rewrite skipn_skipn, <- En in H.
  destruct (loop f _ (after data pos) hi) as [l'|] eqn:El; [|discriminate]. injection H as <-.
  destruct (after_spec data pos (start_or_end_le _ _ Hs)) as (Ha & Hsa & Hgap).
  apply enumerates_cons with (after data pos); [destruct Hs as [Hs|Hs]; [lia|exact Hs]|exact Hlt|lia|exact Hgap|].
  apply (IH (after data pos) l' ltac:(lia) Hsa El).
Qed.

Lemma advance_spec data lo : lo <= length data ->
  start_or_end data (advance data lo) /\ (forall p, is_start data p -> (lo <= p <-> advance data lo <= p)).
Proof.
  intros Hlo. unfold advance. fold (after data lo). destruct (Nat.ltb_spec 0 lo) as [Hpos|Hz].
  2:{ split; [|lia].
      destruct data as [|b t]; [left; reflexivity|right; split; [cbn; lia|left; reflexivity]]. }
  destruct (N.eqb_spec (nth (lo - 1) data 1%N) 0) as [Ez|Enz].
  - split; [|lia]. apply start_after_nul; [lia|exact Ez].
  - destruct (after_spec data lo Hlo) as (Ha & Hsa & Hgap).
    split; [exact Hsa|]. intros p Hp. split; [|lia]. intros Hle.
    (* lo itself is not a start: the byte before it is not a terminator *)
    apply Hgap; [exact Hp|]. destruct (Nat.eq_dec p lo) as [->|]; [|lia]. destruct Hp as [_ [?|?]]; [lia|contradiction].
Qed.

Theorem process_spec data lo hi l : lo <= length data -> process data lo hi = Some l -> enumerates data lo hi l.
Proof.
  intros Hlo H. destruct (advance_spec data lo Hlo) as (Hs & Hiff).
  destruct (loop_spec data hi (length data) (advance data lo) l ltac:(lia) Hs H) as [Hin Hnd].
  split; [|exact Hnd]. intros p. rewrite Hin. split; intros [Hps Hr]; (split; [exact Hps|]); specialize (Hiff p Hps); lia.
Qed.

Lemma list_eqb_eq a b : list_eqb a b = true <-> a = b.
Proof.
  revert b. induction a as [|x a IH]; intros [|y b]; cbn [list_eqb].
  - split; reflexivity.
  - split; discriminate.
  - split; discriminate.
  - rewrite andb_true_iff, N.eqb_eq, IH. split; [intros [-> ->]; reflexivity|intros [= -> ->]; split; reflexivity].
Qed.

Lemma offset_of_spec s strings : forall base o,
  offset_of s strings base = Some o ->
  exists pre post, strings = pre ++ s :: post /\ o = base + length (concat pre).
Proof.
  induction strings as [|x r IH]; intros base o H; [discriminate|]. cbn [offset_of] in H.
  destruct (list_eqb x s) eqn:E.
  - apply list_eqb_eq in E. subst x. injection H as <-. exists [], r. split; [reflexivity|cbn; lia].
  - destruct (IH _ _ H) as (pre & post & -> & ->). exists (x :: pre), post. split; [reflexivity|].
    cbn [concat]. rewrite app_length. lia.
Qed.

Lemma bytes_at_concat (pre post : list str) s :
  firstn (length s) (skipn (length (concat pre)) (concat (pre ++ s :: post))) = s.
Proof.
  rewrite concat_app. cbn [concat]. rewrite skipn_app, skipn_all, Nat.sub_diag. cbn [app skipn].
  rewrite firstn_app, firstn_all, Nat.sub_diag. apply app_nil_r.
Qed.

Lemma prefix_keeps_bytes (a b : list N) n o : o + n <= length a -> firstn n (skipn o (a ++ b)) = firstn n (skipn o a).
Proof.
  intros H. rewrite skipn_app, firstn_app, skipn_length.
  replace (n - (length a - o)) with 0 by lia. apply app_nil_r.
Qed.

Definition nearest (r : recorded) (o : nat) (res : option nat) : Prop :=
  match res with
  | Some x => exists s out, s <= o /\ r s = Some out /\ (forall q, s < q <= o -> r q = None) /\ x = out + (o - s)
  | None => forall q, q <= o -> r q = None
  end.

Lemma find_back_spec (r : recorded) o : forall fuel i,
  i <= o -> o - i < fuel -> (forall q, o - i < q <= o -> r q = None) -> nearest r o (find_back r o i fuel).
Proof.
  induction fuel as [|f IH]; intros i Hi Hf Hnone; [lia|]. cbn [find_back].
  destruct (r (o - i)) as [out|] eqn:Er.
  { exists (o - i), out. repeat split; [lia|exact Er|exact Hnone|]. f_equal. lia. }
  assert (Hnone' : forall q, o - i <= q <= o -> r q = None).
  { intros q Hq. destruct (Nat.eq_dec q (o - i)) as [->|Hne]; [exact Er|apply Hnone; lia]. }
  destruct (Nat.eqb_spec (o - i) 0) as [Ez|Enz].
  - intros q Hq. apply Hnone'. lia.
  - apply IH; [lia|lia|]. intros q Hq. apply Hnone'. lia.
Qed.

Lemma find_string_cases (r : recorded) o : nearest r o (find_string r o).
Proof. apply (find_back_spec r o (S o) 0); lia. Qed.

Definition string_at (data : list N) (s : nat) : option (list N) :=
  match take_len (skipn s data) with Some n => Some (firstn n (skipn s data)) | None => None end.

(* r records, for every string start of the section, an output offset at which `bytes` holds a copy of that string *)
Definition faithful (data : list N) (r : recorded) (bytes : list N) : Prop :=
  (forall s, is_start data s <-> exists out, r s = Some out) /\
  (forall s out str, r s = Some out -> string_at data s = Some str -> firstn (length str) (skipn out bytes) = str).

Lemma string_at_prefix data s str : string_at data s = Some str -> firstn (length str) (skipn s data) = str.
Proof.
  unfold string_at. destruct (take_len _) as [n|]; [|discriminate]. intros [= <-].
  rewrite <- (firstn_all (firstn n _)) at 2. rewrite firstn_firstn, Nat.min_l by apply firstn_le_length. reflexivity.
Qed.

Lemma tail_of_copy {A} (str l : list A) k : firstn (length str) l = str -> firstn (length str - k) (skipn k l) = skipn k str.
Proof. intros H. rewrite <- skipn_firstn_comm, H. reflexivity. Qed.

Theorem merged_bytes_preserved data r bytes o x :
  faithful data r bytes ->
  find_string r o = Some x ->
  exists s, is_start data s /\ s <= o /\ (forall q, s < q <= o -> ~ is_start data q) /\
    forall str, string_at data s = Some str -> o - s < length str ->
      firstn (length str - (o - s)) (skipn x bytes) = firstn (length str - (o - s)) (skipn o data).
Proof.
  intros [Hst Hcopy] Hf. pose proof (find_string_cases r o) as H. rewrite Hf in H.
  destruct H as (s & out & Hs & Hr & Hnone & ->).
  exists s. split; [apply Hst; exists out; exact Hr|]. split; [exact Hs|]. split.
  { intros q Hq Hc. apply Hst in Hc. destruct Hc as [o' Ho']. rewrite (Hnone q Hq) in Ho'. discriminate. }
  intros str Estr _. replace (skipn o data) with (skipn (o - s) (skipn s data)) by (rewrite skipn_skipn; f_equal; lia).
  rewrite <- skipn_skipn.
  rewrite (tail_of_copy str _ _ (Hcopy s out str Hr Estr)), (tail_of_copy str _ _ (string_at_prefix _ _ _ Estr)). reflexivity.
Qed.

Fixpoint process_all (data : list N) (cuts : list nat) : option (list (list nat)) :=
  match cuts with
  | a :: ((b :: _) as t) =>
      match process data a b, process_all data t with
      | Some l, Some ls => Some (l :: ls)
      | _, _ => None
      end
  | _ => Some []
  end.

Lemma process_all_cons data a b t : process_all data (a :: b :: t) =
  match process data a b, process_all data (b :: t) with Some l, Some ls => Some (l :: ls) | _, _ => None end.
Proof. reflexivity. Qed.

Fixpoint nondecreasing (l : list nat) : Prop :=
  match l with a :: ((b :: _) as t) => a <= b /\ nondecreasing t | _ => True end.

Lemma nondecreasing_last : forall t b, nondecreasing (b :: t) -> b <= last (b :: t) 0.
Proof.
  induction t as [|c t IH]; intros b Hn; [cbn; lia|]. destruct Hn as [Hbc Hn]. specialize (IH c Hn).
  change (last (b :: c :: t) 0) with (last (c :: t) 0). lia.
Qed.

(* the block size is S B so that 255 and 256 are an instance as they stand: lia on nat numerals of that size, with div
   and mod, is dear to check *)
Lemma multiple_below_round_up B len b : b mod S B = 0 -> b < (len + B) / S B * S B -> b < len.
Proof.
  intros Hm Hlt. apply Nat.div_exact in Hm; [|discriminate]. rewrite Hm, (Nat.mul_comm (S B)) in Hlt.
  apply Nat.mul_lt_mono_pos_r in Hlt; [|apply Nat.lt_0_succ].
  apply (Nat.mul_le_mono_l _ _ (S B)) in Hlt. rewrite Nat.mul_succ_r, <- Hm in Hlt.
  pose proof (Nat.mul_div_le (len + B) (S B) ltac:(discriminate)) as El. lia.
Qed.

(* remaining[offset_in_section - 1] never indexes out of bounds: group boundaries are multiples of MAP_BLOCK_SIZE inside
   the section's padded extent *)
Theorem split_offsets_in_bounds len b :
  0 < b -> b mod 256 = 0 -> b < (len + 255) / 256 * 256 -> b - 1 < len.
Proof. intros _ Hm Hlt. apply (multiple_below_round_up 255) in Hlt; [|exact Hm]. clear Hm. lia. Qed.
