(* Sequential semantics only: the parallel protocol that moves the strings between groups and buckets is C40's subject. *)
From Coq Require Import NArith List Arith Lia.
From WV Require Import C07.Model C07.Proofs.
Import ListNotations.

(* However the linear input space is cut into work groups (any number of cuts, anywhere — also in the middle of a
   string or exactly on a string start), a section's strings are processed each by exactly one group: the groups'
   lists together contain precisely the string starts of the section, without repetition. *)
Theorem C07_every_string_processed_exactly_once :
  forall data cuts ls,
    nondecreasing cuts -> (forall c, In c cuts -> c <= length data) ->
    process_all data cuts = Some ls ->
    (forall p, In p (concat ls) <-> (is_start data p /\ hd 0 cuts <= p < last cuts 0)) /\ NoDup (concat ls).
Proof.
  intros data. induction cuts as [|a [|b t] IH]; intros ls Hnd Hle H;
    [(* fewer than two cuts: no group, and the range is empty *) injection H as <-; apply enumerates_nil; cbn; lia ..|].
  rewrite process_all_cons in H.
  destruct (process data a b) as [l|] eqn:El; [|discriminate].
  destruct (process_all data (b :: t)) as [ls'|]; [|discriminate]. injection H as <-. destruct Hnd as [Hab Hnd].
  apply enumerates_app with b; [split; [exact Hab|exact (nondecreasing_last _ _ Hnd)]| |].
  - exact (process_spec data a b l (Hle a (or_introl eq_refl)) El).
  - exact (IH ls' Hnd (fun c Hc => Hle c (or_intror Hc)) eq_refl).
Qed.
Print Assumptions C07_every_string_processed_exactly_once.

Theorem C07_group_processes_its_range :
  forall data lo hi l, lo <= length data -> process data lo hi = Some l ->
    (forall p, In p l <-> (is_start data p /\ lo <= p < hi)) /\ NoDup l.
Proof. exact process_spec. Qed.
Print Assumptions C07_group_processes_its_range.

(* the index remaining[offset_in_section - 1] is always in bounds *)
Theorem C07_split_offsets_in_bounds :
  forall len b, 0 < b -> b mod 256 = 0 -> b < (len + 255) / 256 * 256 -> b - 1 < len.
Proof. exact split_offsets_in_bounds. Qed.
Print Assumptions C07_split_offsets_in_bounds.

(* de-duplication: the offset handed out for a string points at a copy of exactly that string, and the bucket only
   grows at its end (offsets handed out earlier stay valid) *)
Theorem C07_bucket_offset_points_at_the_string :
  forall strings s strings' o, add_string strings s = (strings', o) ->
    firstn (length s) (skipn o (concat strings')) = s /\ exists extra, strings' = strings ++ extra.
Proof.
  intros strings s strings' o. unfold add_string. destruct (offset_of s strings 0) as [o'|] eqn:E; intros H; injection H as <- <-.
  - destruct (offset_of_spec _ _ _ _ E) as (pre & post & -> & ->). split; [apply bytes_at_concat|exists []; symmetry; apply app_nil_r].
  - split; [apply bytes_at_concat|exists [s]; reflexivity].
Qed.
Print Assumptions C07_bucket_offset_points_at_the_string.

(* references: if every string start of a section has a recorded output offset holding a copy of its string, then a
   reference to ANY offset o of the section (also into the middle of a string) resolves to output bytes equal to the
   input bytes from o up to and including the terminator of the string that contains o *)
Theorem C07_merged_bytes_preserved :
  forall data r bytes o x,
    faithful data r bytes -> find_string r o = Some x ->
    exists s, is_start data s /\ s <= o /\ (forall q, s < q <= o -> ~ is_start data q) /\
      forall str, string_at data s = Some str -> o - s < length str ->
        firstn (length str - (o - s)) (skipn x bytes) = firstn (length str - (o - s)) (skipn o data).
Proof. exact merged_bytes_preserved. Qed.
Print Assumptions C07_merged_bytes_preserved.

Theorem C07_lookup_succeeds_inside_the_section :
  forall (r : recorded) o s out, s <= o -> r s = Some out -> exists x, find_string r o = Some x.
Proof.
  intros r o s out Hs Hr. pose proof (find_string_cases r o) as H.
  destruct (find_string r o) as [x|]; [exists x; reflexivity|]. rewrite (H s Hs) in Hr. discriminate.
Qed.
Print Assumptions C07_lookup_succeeds_inside_the_section.

(* non-vacuity, and the boundary case a careless "always skip to the next NUL" would lose: a string that starts
   exactly on a group boundary belongs to the group that starts there *)
Example C07_string_on_the_boundary :
  let data := [97; 0; 98; 99; 0; 100; 0]%N in
  process data 0 2 = Some [0] /\ process data 2 5 = Some [2] /\ process data 3 7 = Some [5] /\
  process_all data [0; 2; 3; 7] = Some [[0]; [2]; [5]].
Proof. vm_compute. repeat split. Qed.
