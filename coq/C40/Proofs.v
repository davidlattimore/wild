From Coq Require Import Bool Arith Lia.
From WV Require Import C40.Model.

Lemma ltb_succ a n : (a <? S n) = (a <? n) || (a =? n).
Proof. apply eq_true_iff_eq. rewrite orb_true_iff, !Nat.ltb_lt, Nat.eqb_eq. lia. Qed.

Lemma upd2_same sl g b v : upd2 sl g b v g b = v.
Proof. unfold upd2. rewrite !Nat.eqb_refl. reflexivity. Qed.
Lemma upd2_other sl g b v g' b' : (g', b') <> (g, b) -> upd2 sl g b v g' b' = sl g' b'.
Proof.
  intros H. unfold upd2. destruct (Nat.eqb_spec g' g) as [->|]; [|reflexivity].
  destruct (Nat.eqb_spec b' b) as [->|]; [contradiction|reflexivity].
Qed.
Lemma updn_same {A} (f : nat -> A) k v : upd f k v k = v.
Proof. unfold upd. rewrite Nat.eqb_refl. reflexivity. Qed.
Lemma updn_other {A} (f : nat -> A) k v j : j <> k -> upd f k v j = f j.
Proof. intros H. unfold upd. destruct (Nat.eqb_spec j k); [contradiction|reflexivity]. Qed.

Fixpoint sumf (f : nat -> nat) (n : nat) : nat := match n with O => 0 | S k => sumf f k + f k end.

Lemma sumf_ext f g n : (forall k, k < n -> f k = g k) -> sumf f n = sumf g n.
Proof. induction n as [|n IH]; intros H; cbn; [reflexivity|]. rewrite IH by (intros; apply H; lia). rewrite H by lia. reflexivity. Qed.

Lemma sumf_zero f n : (forall k, k < n -> f k = 0) -> sumf f n = 0.
Proof. intros H. rewrite (sumf_ext f (fun _ => 0) n H). clear H. induction n as [|n IH]; cbn; lia. Qed.

Lemma sumf_upd {A} (h : A -> nat) (f : nat -> A) k v n : k < n ->
  sumf (fun j => h (upd f k v j)) n + h (f k) = sumf (fun j => h (f j)) n + h v.
Proof.
  induction n as [|n IH]; intros H; [lia|]. cbn [sumf].
  destruct (Nat.eq_dec n k) as [->|Hn].
  - rewrite updn_same, (sumf_ext _ (fun j => h (f j)) k); [lia|].
    intros j Hj. rewrite updn_other by lia. reflexivity.
  - rewrite updn_other by assumption. lia.
Qed.

Section Proofs.
  (* The two hypotheses on G, B, cap stand where they are first used, after inv_step: nothing before them has either as
     a premise. *)
  Variable G B cap : nat.

  Notation step := (step G B).
  Notation init := (init cap).
  Notation reachable := (reachable G B cap).

  Definition is_strings (x : slot) : nat := match x with SStrings => 1 | _ => 0 end.
  Definition is_merge (x : bst) : nat := match x with BMerge => 1 | _ => 0 end.
  Definition pend (o : option nat) : nat := match o with Some i => B - i | None => 0 end.

  Definition nstrings (sl : nat -> nat -> slot) : nat := sumf (fun g => sumf (fun b => is_strings (sl g b)) B) G.
  (* Where the pool's vectors are: free; reserved by an input task that has not popped yet (B each); with a popped group's
     input task, still to be delivered; lying in a slot; in the hands of a merging bucket. *)
  Definition total (s : state) : nat :=
    avail s + B * ipop s + sumf (fun g => pend (idel s g)) G + nstrings (slots s) + sumf (fun b => is_merge (bs s b)) B.

  Lemma nstrings_upd2 sl g b v : g < G -> b < B ->
    nstrings (upd2 sl g b v) + is_strings (sl g b) = nstrings sl + is_strings v.
  Proof.
    intros Hg Hb. unfold nstrings.
    pose proof (sumf_upd (fun row => sumf (fun b' => is_strings (row b')) B) sl g (upd (sl g) b v) G Hg) as S1.
    pose proof (sumf_upd is_strings (sl g) b v B Hb) as S2. cbn beta in S1.
    rewrite (sumf_ext _ (fun g' => sumf (fun b' => is_strings (upd sl g (upd (sl g) b v) g' b')) B)); [lia|].
    intros g' _. apply sumf_ext. intros b' _. unfold upd2, upd.
    destruct (Nat.eqb_spec g' g) as [->|]; [destruct (b' =? b)|]; reflexivity.
  Qed.

  Definition delivered (s : state) (g b : nat) : bool := match idel s g with Some i => b <? i | None => false end.
  (* from taking the strings of its next group until it moves on: the merge itself (BMerge alone holds a vector, is_merge),
     then the spawner run inline *)
  Definition merging (x : bst) : bool := match x with BMerge | BLoad | BCas _ => true | _ => false end.
  Definition taken (s : state) (g b : nat) : bool := (g <? nb s b) || ((g =? nb s b) && merging (bs s b)).

  Definition parked (x : bst) : bool := match x with BParked => true | _ => false end.
  Definition waiting (s : state) (g b : nat) : bool := (g =? nb s b) && parked (bs s b).

  Lemma waiting_spec s g b : waiting s g b = true <-> g = nb s b /\ bs s b = BParked.
  Proof.
    unfold waiting. rewrite andb_true_iff, Nat.eqb_eq. split; intros [E H]; (split; [exact E|]).
    - destruct (bs s b); try discriminate; reflexivity.
    - rewrite H. reflexivity.
  Qed.

  Lemma merging_not_parked x : merging x = true -> parked x = false.
  Proof. destruct x; try discriminate; reflexivity. Qed.

  (* The hand-off of group g to bucket b passes through four stages, told apart by whether the vector has been delivered
     (d), whether it has been taken (t) and whether the bucket waits for it (w): nothing yet, bucket waiting, strings
     lying there, strings taken.  The slot holds no information of its own: the stage decides what is in it. *)
  Definition cell (d t w : bool) (x : slot) : Prop :=
    match d, t, w with
    | false, false, false => x = SEmpty
    | false, false, true => x = SWaiting
    | true, false, false => x = SStrings
    | true, true, false => x = SEmpty
    | _, _, _ => False
    end.

  Lemma cell_strings d t w x : cell d t w x -> x = SStrings <-> d = true /\ t = false.
  Proof.
    destruct d, t, w; cbn; intros E; try contradiction; subst x.
    all: split; try discriminate; try tauto; intros [? ?]; discriminate.
  Qed.

  Lemma cell_waiting d t w : cell d t w SWaiting -> w = true /\ d = false.
  Proof. destruct d, t, w; cbn; intros E; try contradiction; try discriminate. tauto. Qed.

  (* BParked alone is an implication: every index, a bucket's or not, starts parked, and only those below B ever leave. *)
  Definition bucket_ok (b n : nat) (x : bst) : Prop :=
    match x with
    | BParked => b < B -> n < G
    | BDone => b < B /\ n = G
    | BCas a => b < B /\ n < G /\ B <= a
    | _ => b < B /\ n < G
    end.

  Record Inv (s : state) : Prop := {
    v_pop : popped s <= G;
    v_idel : forall g, match idel s g with Some i => g < popped s /\ i <= B | None => popped s <= g end;
    v_spcas : forall a, sp s = SpCas a -> B <= a;
    v_bs : forall b, bucket_ok b (nb s b) (bs s b);
    v_cell : forall g b, cell (delivered s g b) (taken s g b) (waiting s g b) (slots s g b);
    v_total : total s = cap
  }.

  Lemma inv_pool s av ip x : Inv s -> av + B * ip = avail s + B * ipop s -> (forall a, x = SpCas a -> B <= a) ->
    Inv {| popped := popped s; avail := av; ipop := ip; idel := idel s; slots := slots s; nb := nb s; bs := bs s; sp := x |}.
  Proof.
    intros HI Hsum Hx.
    (* Here and in every step below: [apply HI] with the record hypothesis tries its projections, so it closes the
       fields that the step leaves as they were; each field that the step touches is left as a bullet. *)
    split; cbn [popped avail ipop idel slots nb bs sp]; try apply HI.
    - (* v_spcas *) exact Hx.
    - (* v_total *) pose proof (v_total _ HI) as T. unfold total in *. cbn [popped avail ipop idel slots nb bs sp]. lia.
  Qed.

  Lemma step_spload s s' : Inv s -> step s ESpLoad = Some s' -> Inv s'.
  Proof.
    intros HI H. cbn [Model.step] in H. destruct (sp s); try discriminate. injection H as <-.
    apply inv_pool; [assumption|reflexivity|].
    intros a. destruct (Nat.ltb_spec (avail s) B); intros [= <-]. assumption.
  Qed.

  Lemma step_spcas s s' : Inv s -> step s ESpCas = Some s' -> Inv s'.
  Proof.
    intros HI H. cbn [Model.step] in H. destruct (sp s) eqn:Esp; try discriminate.
    pose proof (v_spcas _ HI a Esp).
    destruct (Nat.eqb_spec (avail s) a); injection H as <-; (apply inv_pool; [assumption|nia|discriminate]).
  Qed.

  Lemma step_pop s s' : Inv s -> step s EPop = Some s' -> Inv s'.
  Proof.
    intros HI H. cbn [Model.step] in H. destruct (Nat.eqb_spec (ipop s) 0) as [E0|E0]; [discriminate|].
    destruct (Nat.ltb_spec (popped s) G) as [Hp|Hp]; injection H as <-.
    2:{ apply inv_pool; [assumption|nia|apply HI]. }
    pose proof (v_idel _ HI (popped s)) as Hn. destruct (idel s (popped s)) eqn:En; [lia|].
    split; cbn [popped avail ipop idel slots nb bs sp]; try apply HI.
    - (* v_pop *) lia.
    - (* v_idel *) intros g. unfold upd. destruct (Nat.eqb_spec g (popped s)) as [->|]; [lia|].
      pose proof (v_idel _ HI g). destruct (idel s g); lia.
    - (* v_cell.  Here and in the bucket steps below the new cell is read off the old one at the same point: with the views
         unfolded the two are the same term outside the row or column that the step touches.  Here: the popped
         group has delivered nothing yet, as before. *)
      intros g b. pose proof (v_cell _ HI g b) as C. unfold delivered in *. cbn [idel]. unfold upd.
      destruct (Nat.eqb_spec g (popped s)) as [->|]; [rewrite En in C|]; exact C.
    - (* v_total *) pose proof (v_total _ HI) as T. unfold total in *. cbn [popped avail ipop idel slots nb bs sp].
      pose proof (sumf_upd pend (idel s) (popped s) (Some 0) G Hp) as S1. rewrite En in S1. cbn [pend] in S1. nia.
  Qed.

  Lemma step_deliver s s' g : Inv s -> step s (EDeliver g) = Some s' -> Inv s'.
  Proof.
    intros HI H. cbn [Model.step] in H.
    pose proof (v_idel _ HI g) as Hg. destruct (idel s g) as [i|] eqn:Ei; [|discriminate].
    destruct (Nat.ltb_spec i B) as [HiB|]; [|discriminate]. injection H as <-.
    pose proof (v_pop _ HI) as Hpop.
    (* the cell (g,i) is not delivered, so not taken, and its slot is empty unless the bucket waits in it:
       the input task finds a parked bucket exactly when the bucket waits for this group *)
    pose proof (v_cell _ HI g i) as C.
    replace (delivered s g i) with false in C by (unfold delivered; rewrite Ei, Nat.ltb_irrefl; reflexivity).
    destruct (taken s g i) eqn:Hnt; [contradiction|].
    assert (Es : slots s g i = if waiting s g i then SWaiting else SEmpty) by (destruct (waiting s g i); exact C).
    replace (match slots s g i with SWaiting => true | _ => false end) with (waiting s g i)
      by (rewrite Es; destruct (waiting s g i); reflexivity).
    set (s1 := {| popped := popped s; avail := avail s; ipop := ipop s; idel := upd (idel s) g (Some (S i));
                  slots := upd2 (slots s) g i SStrings; nb := nb s;
                  bs := if waiting s g i then upd (bs s) i BTake else bs s; sp := sp s |}).
    (* what the step changes: at most bucket i goes from parked to running; (g,i) becomes delivered; nothing is taken;
       bucket i no longer waits *)
    assert (Hbs : forall b, bs s1 b = bs s b \/ b = i /\ bs s b = BParked /\ bs s1 b = BTake).
    { intros b. cbn [bs s1]. destruct (waiting s g i) eqn:W; [|left; reflexivity].
      apply waiting_spec in W as [_ Ep]. unfold upd. destruct (Nat.eqb_spec b i) as [->|]; auto. }
    assert (Hd : forall g' b', delivered s1 g' b' = delivered s g' b' || ((g' =? g) && (b' =? i))).
    { intros g' b'. unfold delivered. cbn [idel s1]. unfold upd.
      destruct (Nat.eqb_spec g' g) as [->|]; [rewrite Ei; apply ltb_succ|apply eq_sym, orb_false_r]. }
    assert (Ht : forall g' b', taken s1 g' b' = taken s g' b').
    { intros g' b'. unfold taken.
      destruct (Hbs b') as [->|(_ & -> & ->)]; reflexivity. }
    assert (Hw : forall g' b', waiting s1 g' b' = waiting s g' b' && negb ((g' =? g) && (b' =? i))).
    { intros g' b'. unfold waiting at 1. cbn [nb bs s1]. destruct (waiting s g i) eqn:W.
      - apply waiting_spec in W as [Eg Ep]. unfold upd, waiting. destruct (Nat.eqb_spec b' i) as [->|].
        + rewrite Ep, <- Eg. destruct (g' =? g); reflexivity.
        + rewrite andb_false_r, andb_true_r. reflexivity.
      - destruct ((g' =? g) && (b' =? i)) eqn:E; [|apply eq_sym, andb_true_r].
        apply andb_true_iff in E as [->%Nat.eqb_eq ->%Nat.eqb_eq]. rewrite W. exact W. }
    split; cbn [popped avail ipop idel slots nb bs sp s1]; try apply HI.
    - (* v_idel *) intros g'. unfold upd. destruct (Nat.eqb_spec g' g) as [->|]; [lia|apply HI].
    - (* v_bs *) intros b. change (bucket_ok b (nb s b) (bs s1 b)). pose proof (v_bs _ HI b) as X.
      destruct (Hbs b) as [->|(-> & Ep & ->)]; [assumption|]. rewrite Ep in X. exact (conj HiB (X HiB)).
    - (* v_cell *) intros g' b'.
      rewrite Hd, Ht, Hw. unfold upd2. destruct ((g' =? g) && (b' =? i)) eqn:E.
      + apply andb_true_iff in E as [->%Nat.eqb_eq ->%Nat.eqb_eq]. rewrite Hnt, orb_true_r, andb_false_r. reflexivity.
      + rewrite orb_false_r, andb_true_r. apply HI.
    - (* v_total *) pose proof (v_total _ HI) as T. unfold total in *.
      rewrite (sumf_ext (fun b => is_merge (bs s1 b)) (fun b => is_merge (bs s b)) B).
      2:{ intros b _. destruct (Hbs b) as [->|(_ & -> & ->)]; reflexivity. }
      cbn [avail ipop idel slots s1].
      pose proof (nstrings_upd2 (slots s) g i SStrings ltac:(lia) HiB) as S1. rewrite Es in S1.
      pose proof (sumf_upd pend (idel s) g (Some (S i)) G ltac:(lia)) as S2. rewrite Ei in S2. cbn [pend] in S2.
      destruct (waiting s g i); cbn [is_strings] in S1; lia.
  Qed.

  Lemma step_take s s' b : Inv s -> step s (ETake b) = Some s' -> Inv s'.
  Proof.
    intros HI H. cbn [Model.step] in H.
    pose proof (v_bs _ HI b) as Hb. destruct (bs s b) eqn:Eb; try discriminate. destruct Hb as [HbB HnG].
    pose proof (v_cell _ HI (nb s b) b) as C. unfold taken, waiting in C.
    rewrite Eb, Nat.ltb_irrefl, !andb_false_r in C.
    (* A running bucket finds its slot full or empty, as the vector has been delivered (d) or not, and takes the
       strings or parks: the two outcomes are treated as one, and d is split only where a table row is read. *)
    set (d := delivered s (nb s b) b) in *.
    assert (Es : slots s (nb s b) b = if d then SStrings else SEmpty) by (destruct d; exact C).
    set (x := if d then BMerge else BParked).
    set (v := if d then SEmpty else SWaiting).
    assert (s' = {| popped := popped s; avail := avail s; ipop := ipop s; idel := idel s;
                    slots := upd2 (slots s) (nb s b) b v; nb := nb s; bs := upd (bs s) b x; sp := sp s |}) as ->
      by (rewrite Es in H; destruct d; injection H as <-; reflexivity).
    split; cbn [popped avail ipop idel slots nb bs sp]; try apply HI.
    - (* v_bs *) intros b'. unfold upd. destruct (Nat.eqb_spec b' b) as [->|]; [|apply HI].
      destruct d; [exact (conj HbB HnG)|exact (fun _ => HnG)].
    - (* v_cell *) intros g' b'. change (delivered _ g' b') with (delivered s g' b').
      pose proof (v_cell _ HI g' b') as C'. unfold taken, waiting in *. cbn [nb bs]. unfold upd2, upd.
      destruct (Nat.eqb_spec b' b) as [->|]; [|rewrite andb_false_r; exact C'].
      (* in its own column the bucket's state is read only at its next group *)
      destruct (Nat.eqb_spec g' (nb s b)) as [E|]; [|exact C'].
      subst g'. rewrite Nat.ltb_irrefl. fold d. destruct d; reflexivity.
    - (* v_total *) pose proof (v_total _ HI) as T. unfold total in *. cbn [popped avail ipop idel slots nb bs sp].
      pose proof (nstrings_upd2 (slots s) (nb s b) b v HnG HbB) as S1. rewrite Es in S1.
      pose proof (sumf_upd is_merge (bs s) b x B HbB) as S2. rewrite Eb in S2.
      destruct d; cbn [is_strings is_merge x v] in *; lia.
  Qed.

  (* After the merge a bucket is running and holds no hand-off open: whatever it does next changes neither what it has
     taken nor what it waits for.  Either it stays with its group (return the vector, remember the pool level,
     reserve) ... *)
  Lemma inv_set_bs s b x av ip : Inv s -> merging (bs s b) = true -> merging x = true -> bucket_ok b (nb s b) x ->
    av + B * ip + is_merge x = avail s + B * ipop s + is_merge (bs s b) ->
    Inv {| popped := popped s; avail := av; ipop := ip; idel := idel s; slots := slots s; nb := nb s;
           bs := upd (bs s) b x; sp := sp s |}.
  Proof.
    intros HI Hm Hx Hok Hsum.
    assert (HbB : b < B).
    { pose proof (v_bs _ HI b) as Hb. destruct (bs s b); try discriminate; apply Hb. }
    split; cbn [popped avail ipop idel slots nb bs sp]; try apply HI.
    - (* v_bs *) intros b'. unfold upd. destruct (Nat.eqb_spec b' b) as [->|]; [exact Hok|apply HI].
    - (* v_cell *) intros g b'. pose proof (v_cell _ HI g b') as C. unfold taken, waiting in *. cbn [nb bs]. unfold upd.
      destruct (Nat.eqb_spec b' b) as [->|]; [|exact C].
      rewrite Hx, (merging_not_parked _ Hx). rewrite Hm, (merging_not_parked _ Hm) in C. exact C.
    - (* v_total *) pose proof (v_total _ HI) as T. unfold total in *. cbn [popped avail ipop idel slots nb bs sp].
      pose proof (sumf_upd is_merge (bs s) b x B HbB). lia.
  Qed.

  (* ... or it goes on to the next group: "below nb, or at nb and merging" and "below nb + 1" say the same. *)
  Lemma inv_advance s b : Inv s -> merging (bs s b) = true -> is_merge (bs s b) = 0 -> Inv (advance G s b).
  Proof.
    intros HI Hm Him. unfold advance.
    set (x := if S (nb s b) =? G then BDone else BTake).
    assert (HbB : b < B /\ nb s b < G).
    { pose proof (v_bs _ HI b) as Hb. destruct (bs s b); try discriminate; split; apply Hb. }
    assert (Hx : merging x = false /\ parked x = false /\ is_merge x = 0 /\ bucket_ok b (S (nb s b)) x).
    { destruct (Nat.eqb_spec (S (nb s b)) G); repeat split; try reflexivity; try apply HbB; lia. }
    destruct Hx as (Hxm & Hxp & Hxi & Hok).
    split; cbn [popped avail ipop idel slots nb bs sp]; try apply HI.
    - (* v_bs *) intros b'. unfold upd. destruct (Nat.eqb_spec b' b) as [->|]; [exact Hok|apply HI].
    - (* v_cell *) intros g b'. pose proof (v_cell _ HI g b') as C. unfold taken, waiting in *. cbn [nb bs]. unfold upd.
      destruct (Nat.eqb_spec b' b) as [->|]; [|exact C].
      rewrite Hm, (merging_not_parked _ Hm), andb_true_r, andb_false_r in C.
      rewrite Hxm, Hxp, !andb_false_r, orb_false_r, ltb_succ. exact C.
    - (* v_total *) pose proof (v_total _ HI) as T. unfold total in *. cbn [popped avail ipop idel slots nb bs sp].
      pose proof (sumf_upd is_merge (bs s) b x B (proj1 HbB)). lia.
  Qed.

  Lemma step_return s s' b : Inv s -> step s (EReturn b) = Some s' -> Inv s'.
  Proof.
    intros HI H. cbn [Model.step] in H.
    pose proof (v_bs _ HI b) as Hb. destruct (bs s b) eqn:Eb; try discriminate. injection H as <-.
    apply inv_set_bs; rewrite ?Eb; try reflexivity; [assumption|exact Hb|cbn [is_merge]; lia].
  Qed.

  Lemma step_bload s s' b : Inv s -> step s (EBLoad b) = Some s' -> Inv s'.
  Proof.
    intros HI H. cbn [Model.step] in H.
    pose proof (v_bs _ HI b) as Hb. destruct (bs s b) eqn:Eb; try discriminate.
    destruct (Nat.ltb_spec (avail s) B); injection H as <-.
    - apply inv_advance; [assumption|rewrite Eb; reflexivity..].
    - apply (inv_set_bs s b (BCas (avail s))); rewrite ?Eb; try reflexivity; [assumption|].
      destruct Hb. repeat split; assumption.
  Qed.

  Lemma step_bcas s s' b : Inv s -> step s (EBCas b) = Some s' -> Inv s'.
  Proof.
    intros HI H. cbn [Model.step] in H.
    pose proof (v_bs _ HI b) as Hb. destruct (bs s b) eqn:Eb; try discriminate. destruct Hb as (HbB & HnG & Ha).
    destruct (Nat.eqb_spec (avail s) a); injection H as <-.
    - apply inv_set_bs; rewrite ?Eb; try reflexivity; [assumption|split; assumption|cbn [is_merge]; nia].
    - apply inv_advance; [assumption|rewrite Eb; reflexivity..].
  Qed.

  Theorem inv_step s s' e : Inv s -> step s e = Some s' -> Inv s'.
  Proof.
    intros HI H. destruct e.
    - eapply step_spload; eassumption.
    - eapply step_spcas; eassumption.
    - eapply step_pop; eassumption.
    - eapply step_deliver; eassumption.
    - eapply step_take; eassumption.
    - eapply step_return; eassumption.
    - eapply step_bload; eassumption.
    - eapply step_bcas; eassumption.
  Qed.

  (* Needed once, for v_bs of the initial state: every bucket starts parked at group 0, and bucket_ok wants a parked bucket's
     next group below G. *)
  Hypothesis G_pos : 0 < G.

  Lemma inv_init : Inv init.
  Proof.
    split; cbn [popped avail ipop idel slots nb bs sp Model.init].
    - lia.
    - intros g. lia.
    - discriminate.
    - intros b _. exact G_pos.
    - intros g b. unfold delivered, taken, waiting. cbn. destruct (g =? 0); reflexivity.
    - unfold total, nstrings. cbn [popped avail ipop idel slots nb bs sp Model.init pend is_merge].
      rewrite (sumf_zero (fun _ => 0)) by reflexivity. rewrite (sumf_zero (fun _ : nat => 0) B) by reflexivity.
      rewrite sumf_zero; [lia|]. intros g Hg. apply sumf_zero. intros b Hb. destruct (g =? 0); reflexivity.
  Qed.

  (* No proof needs B <= cap (with a smaller pool no reservation succeeds and nothing ever moves): the file checks with
     this line and the four mentions in `Proof using` struck out.  The four results below carry it as a premise all the same. *)
  Hypothesis cap_mult : B <= cap.

  Theorem inv_reachable s : reachable s -> Inv s.
  Proof using G_pos cap_mult.
    intros [es H]. revert s H. generalize inv_init. generalize init as s0.
    induction es as [|e t IH]; intros s0 H0 s H; cbn in H; [injection H as <-; assumption|].
    destruct (step s0 e) as [s1|] eqn:E; [|discriminate]. eapply IH; [eapply inv_step; eassumption|eassumption].
  Qed.

  (* every hand-off, in every reachable state, is in one of the four stages: no vector is lost, none is taken twice,
     and a parked bucket waits for a vector that has not been delivered *)
  Theorem handoff_stage s g b : reachable s -> cell (delivered s g b) (taken s g b) (waiting s g b) (slots s g b).
  Proof using G_pos cap_mult. intros Hr. apply (v_cell _ (inv_reachable s Hr)). Qed.

  Theorem pool_restored s : reachable s -> (forall b, b < B -> bs s b = BDone) -> ipop s = 0 -> avail s = cap.
  Proof using G_pos cap_mult.
    intros Hr Hd Hip. pose proof (inv_reachable s Hr) as HI. pose proof (v_total _ HI) as T. unfold total in T.
    (* every bucket is past the last group, so every vector has been taken: it was delivered and its slot is empty *)
    assert (Hc : forall g b, g < G -> b < B -> delivered s g b = true /\ slots s g b = SEmpty).
    { intros g b Hg Hb. pose proof (v_cell _ HI g b) as C. replace (taken s g b) with true in C.
      - destruct (delivered s g b), (waiting s g b); try contradiction; auto.
      - unfold taken. pose proof (v_bs _ HI b) as Hn. rewrite (Hd b Hb) in Hn. destruct Hn as [_ ->].
        apply eq_sym, orb_true_iff. left. apply Nat.ltb_lt. assumption. }
    assert (S1 : sumf (fun b => is_merge (bs s b)) B = 0).
    { apply sumf_zero. intros b Hb. rewrite (Hd b Hb). reflexivity. }
    assert (S2 : nstrings (slots s) = 0).
    { apply sumf_zero. intros g Hg. apply sumf_zero. intros b Hb. rewrite (proj2 (Hc g b Hg Hb)). reflexivity. }
    assert (S3 : sumf (fun g => pend (idel s g)) G = 0).
    { apply sumf_zero. intros g Hg. unfold pend. destruct B as [|B'] eqn:EB; [destruct (idel s g); reflexivity|].
      (* the last bucket's vector was delivered *)
      destruct (Hc g B' Hg ltac:(lia)) as [D _]. unfold delivered in D.
      destruct (idel s g) as [i|]; [|discriminate]. apply Nat.ltb_lt in D. lia. }
    rewrite S1, S2, S3, Hip in T. lia.
  Qed.

  Definition terminal (s : state) : Prop := forall e, step s e = None.

  Theorem terminal_done_partial s : reachable s -> terminal s -> popped s = G ->
    (forall b, b < B -> bs s b = BDone) /\ avail s = cap /\ ipop s = 0.
  Proof using G_pos cap_mult.
    intros Hr Ht Hp. pose proof (inv_reachable s Hr) as HI.
    assert (Hip : ipop s = 0).
    { pose proof (Ht EPop) as H. cbn [Model.step] in H. destruct (Nat.eqb_spec (ipop s) 0); [assumption|].
      destruct (popped s <? G); discriminate. }
    assert (Hdel : forall g b, g < G -> b < B -> delivered s g b = true).
    { intros g b Hg Hb. unfold delivered. pose proof (v_idel _ HI g) as Hi.
      pose proof (Ht (EDeliver g)) as H. cbn [Model.step] in H.
      destruct (idel s g) as [i|]; [|lia]. destruct (Nat.ltb_spec i B); [discriminate|]. apply Nat.ltb_lt. lia. }
    assert (Hdone : forall b, b < B -> bs s b = BDone).
    { intros b Hb. pose proof (v_bs _ HI b) as Hn.
      destruct (bs s b) eqn:Eb; try reflexivity; exfalso.
      - (* a parked bucket waits for a vector that has been delivered: no such stage *)
        pose proof (v_cell _ HI (nb s b) b) as C.
        replace (waiting s (nb s b) b) with true in C by (apply eq_sym, waiting_spec; auto).
        rewrite (Hdel _ _ (Hn Hb) Hb) in C. destruct (taken s (nb s b) b); destruct C.
      - pose proof (Ht (ETake b)) as H. cbn [Model.step] in H. rewrite Eb in H. destruct (slots s (nb s b) b); discriminate.
      - pose proof (Ht (EReturn b)) as H. cbn [Model.step] in H. rewrite Eb in H. discriminate.
      - pose proof (Ht (EBLoad b)) as H. cbn [Model.step] in H. rewrite Eb in H. destruct (avail s <? B); discriminate.
      - pose proof (Ht (EBCas b)) as H. cbn [Model.step] in H. rewrite Eb in H. destruct (avail s =? a); discriminate. }
    split; [assumption|]. split; [apply pool_restored; assumption|assumption].
  Qed.

End Proofs.
