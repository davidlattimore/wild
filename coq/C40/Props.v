(* C40 — property theorems only.  All statements quantify over every reachable state of the transition function
   Model.step, i.e. over every interleaving of input tasks, bucket tasks and spawners, for any number G >= 1 of input
   groups, any number B of buckets and any pool capacity >= B. *)
From Coq Require Import Bool Arith.
From WV Require Import C40.Model C40.Proofs.

Section Statements.
  Variable G B cap : nat.
  Hypothesis G_pos : 0 < G.
  Hypothesis cap_mult : B <= cap.

  (* exactly once, in group order: a bucket merges only the strings of its next group; they were delivered by that group's
     input task and had not been taken; afterwards they count as taken; the group counter moves by one, only after a merge *)
  Theorem C40_take_is_next_group : forall s s' b, reachable G B cap s -> step G B s (ETake b) = Some s' -> bs s' b = BMerge ->
    slots s (nb s b) b = SStrings /\ delivered s (nb s b) b = true /\ taken s (nb s b) b = false /\
    nb s' b = nb s b /\ taken s' (nb s b) b = true.
  Proof using G_pos cap_mult.
    intros s s' b Hr H Hm. cbn [step] in H.
    destruct (bs s b); try discriminate.
    destruct (slots s (nb s b) b) eqn:Es; injection H as <-; cbn [bs nb] in *; rewrite updn_same in Hm; try discriminate.
    apply (cell_strings _ _ _ _ (handoff_stage G B cap G_pos cap_mult s _ _ Hr)) in Es as [D T].
    repeat split; try assumption. unfold taken. cbn [nb bs]. rewrite updn_same, Nat.eqb_refl. apply orb_true_r.
  Qed.
  Theorem C40_groups_in_order : forall s s' e b, step G B s e = Some s' ->
    nb s' b = nb s b \/ (nb s' b = S (nb s b) /\ merging (bs s b) = true).
  Proof using.
    (* Nothing but the inversion of [step]: every branch that answers [Some] is a record with [nb := nb s], except
       [advance], which EBLoad/EBCas reach from a bucket in BLoad/BCas. *)
    intros s s' e b H.
    assert (A : forall b0, merging (bs s b0) = true ->
                  nb (advance G s b0) b = nb s b \/ (nb (advance G s b0) b = S (nb s b) /\ merging (bs s b) = true)).
    { intros b0 Hm. cbn [advance nb]. unfold upd.
      destruct (Nat.eqb_spec b b0) as [->|]; [right; split; [reflexivity|exact Hm]|left; reflexivity]. }
    destruct e as [| | |g|b0|b0|b0|b0]; cbn [step] in H.
    - destruct (sp s); try discriminate. injection H as <-. left. reflexivity.
    - destruct (sp s); try discriminate. destruct (avail s =? a); injection H as <-; left; reflexivity.
    - destruct (ipop s =? 0); [discriminate|]. destruct (popped s <? G); injection H as <-; left; reflexivity.
    - destruct (idel s g) as [i|]; [|discriminate]. destruct (i <? B); [|discriminate]. injection H as <-. left. reflexivity.
    - destruct (bs s b0); try discriminate. destruct (slots s (nb s b0) b0); injection H as <-; left; reflexivity.
    - destruct (bs s b0); try discriminate. injection H as <-. left. reflexivity.
    - (* EBLoad: on to the next group, or stay to reserve *)
      destruct (bs s b0) eqn:Eb; try discriminate.
      destruct (avail s <? B); injection H as <-; [apply A; rewrite Eb|left]; reflexivity.
    - (* EBCas: reserved, or on to the next group *)
      destruct (bs s b0) eqn:Eb; try discriminate.
      destruct (avail s =? a); injection H as <-; [left|apply A; rewrite Eb]; reflexivity.
  Qed.

  (* the conservation invariant and its consequence: when all buckets are done the pool is full again (the assert_eq! of merge_strings) *)
  Theorem C40_pool_conserved : forall s, reachable G B cap s -> total G B s = cap.
  Proof using G_pos cap_mult. intros s Hr. exact (v_total G B cap s (inv_reachable G B cap G_pos cap_mult s Hr)). Qed.
  Theorem C40_pool_restored : forall s, reachable G B cap s -> (forall b, b < B -> bs s b = BDone) -> ipop s = 0 -> avail s = cap.
  Proof using G_pos cap_mult. exact (pool_restored G B cap G_pos cap_mult). Qed.

  (* a delivered and not yet taken vector is always found in its slot (no hand-off is lost), and a bucket parked in a slot waits for a group that has not been delivered to it *)
  Theorem C40_no_lost_handoff : forall s g b, reachable G B cap s -> b < B -> delivered s g b = true -> taken s g b = false -> slots s g b = SStrings.
  Proof using G_pos cap_mult.
    intros s g b Hr _ D T. apply (cell_strings _ _ _ _ (handoff_stage G B cap G_pos cap_mult s g b Hr)). split; assumption.
  Qed.
  Theorem C40_parked_waits_for_undelivered : forall s g b, reachable G B cap s -> slots s g b = SWaiting ->
    g = nb s b /\ bs s b = BParked /\ delivered s g b = false.
  Proof using G_pos cap_mult.
    intros s g b Hr Es. pose proof (handoff_stage G B cap G_pos cap_mult s g b Hr) as C. rewrite Es in C. apply cell_waiting in C as [[-> ->]%waiting_spec D]. auto.
  Qed.

  (* progress, PARTIAL: if nothing can move and every group has been popped, everything is finished.  Not proved: that a
     state in which nothing can move has popped every group (the "failed CAS never strands input groups" argument). *)
  Theorem C40_terminal_done_partial : forall s, reachable G B cap s -> terminal G B s -> popped s = G ->
    (forall b, b < B -> bs s b = BDone) /\ avail s = cap /\ ipop s = 0.
  Proof using G_pos cap_mult. exact (terminal_done_partial G B cap G_pos cap_mult). Qed.
End Statements.

Print Assumptions C40_take_is_next_group.
Print Assumptions C40_groups_in_order.
Print Assumptions C40_pool_conserved.
Print Assumptions C40_pool_restored.
Print Assumptions C40_no_lost_handoff.
Print Assumptions C40_parked_waits_for_undelivered.
Print Assumptions C40_terminal_done_partial.
