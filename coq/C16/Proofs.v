From Coq Require Import NArith ZArith List Lia.
From WV Require Import C16.Model C16.Spec.
Open Scope Z_scope.

(* all literals are 64-bit, and no ALIGN (outside the constant fragment) *)
Fixpoint wf (e : expr) : Prop :=
  match e with
  | Num n => (n < W)%N
  | Bin _ a b | Min a b | Max a b => wf a /\ wf b
  | Un _ a => wf a
  | Align _ => False
  end.

Lemma W_M : Z.of_N W = M. Proof. reflexivity. Qed.

Lemma mod_lt_W x : (x mod W < W)%N.
Proof. apply N.mod_lt. discriminate. Qed.

Lemma b2n_lt b : (b2n b < W)%N. Proof. destruct b; reflexivity. Qed.
Lemma b2n_zb b : Z.of_N (b2n b) = zb b. Proof. destruct b; reflexivity. Qed.

Lemma ltb_N_Z x y : (x <? y)%N = (Z.of_N x <? Z.of_N y).
Proof. unfold N.ltb, Z.ltb. rewrite N2Z.inj_compare. reflexivity. Qed.
Lemma leb_N_Z x y : (x <=? y)%N = (Z.of_N x <=? Z.of_N y).
Proof. unfold N.leb, Z.leb. rewrite N2Z.inj_compare. reflexivity. Qed.
Lemma eqb_N_Z x y : (x =? y)%N = (Z.of_N x =? Z.of_N y).
Proof. destruct x, y; reflexivity. Qed.

Lemma high_bit_clear x i : (x < W)%N -> (64 <= i)%N -> N.testbit x i = false.
Proof. intros H Hi. rewrite <- (N.mod_small x W H). apply N.mod_pow2_bits_high, Hi. Qed.

Lemma high_bits_clear_lt x : (forall i, (64 <= i)%N -> N.testbit x i = false) -> (x < W)%N.
Proof.
  intros H. replace x with (x mod W)%N; [apply mod_lt_W|].
  apply N.bits_inj. intros i. destruct (N.lt_ge_cases i 64) as [Hi|Hi].
  - apply N.mod_pow2_bits_low, Hi.
  - rewrite (H i Hi). apply N.mod_pow2_bits_high, Hi.
Qed.

Lemma land_lt x y : (x < W)%N -> (N.land x y < W)%N.
Proof.
  intros Hx. apply high_bits_clear_lt. intros i Hi. rewrite N.land_spec, (high_bit_clear x) by assumption. reflexivity.
Qed.
Lemma lor_lt x y : (x < W)%N -> (y < W)%N -> (N.lor x y < W)%N.
Proof.
  intros Hx Hy. apply high_bits_clear_lt. intros i Hi. rewrite N.lor_spec, !high_bit_clear by assumption. reflexivity.
Qed.
Lemma lxor_lt x y : (x < W)%N -> (y < W)%N -> (N.lxor x y < W)%N.
Proof.
  intros Hx Hy. apply high_bits_clear_lt. intros i Hi. rewrite N.lxor_spec, !high_bit_clear by assumption. reflexivity.
Qed.
Lemma shiftr_lt x k : (x < W)%N -> (N.shiftr x k < W)%N.
Proof.
  intros Hx. apply high_bits_clear_lt. intros i Hi. rewrite N.shiftr_spec'. apply high_bit_clear; [assumption|lia].
Qed.

Lemma ofN_land x y : Z.of_N (N.land x y) = Z.land (Z.of_N x) (Z.of_N y).
Proof. destruct x, y; reflexivity. Qed.
Lemma ofN_lor x y : Z.of_N (N.lor x y) = Z.lor (Z.of_N x) (Z.of_N y).
Proof. destruct x, y; reflexivity. Qed.
Lemma ofN_lxor x y : Z.of_N (N.lxor x y) = Z.lxor (Z.of_N x) (Z.of_N y).
Proof. destruct x, y; reflexivity. Qed.

Lemma shcount_eq y : shcount y = (y mod 64)%N.
Proof.
  unfold shcount. change (2 ^ 32)%N with (64 * 2 ^ 26)%N. rewrite N.mod_mul_r by discriminate.
  rewrite (N.mul_comm 64 ((y / 64) mod 2 ^ 26)), N.mod_add by discriminate. apply N.mod_mod. discriminate.
Qed.

Lemma sgn_sg x : sgn x = sg (Z.of_N x).
Proof. unfold sgn, sg. rewrite ltb_N_Z. reflexivity. Qed.

Lemma of_sgn_spec z : Z.of_N (of_sgn z) = z mod M /\ (of_sgn z < W)%N.
Proof.
  unfold of_sgn. pose proof (Z.mod_pos_bound z M eq_refl) as Hb. fold M.
  rewrite Z2N.id by lia. split; [reflexivity|].
  apply N2Z.inj_lt. rewrite Z2N.id by lia. rewrite W_M. lia.
Qed.

Lemma lnot_spec x : (x < W)%N -> Z.of_N (N.lxor x (N.ones 64)) = (- Z.of_N x - 1) mod M.
Proof.
  intros H.
  assert (E : (x + N.lxor x (N.ones 64) = N.ones 64)%N).
  { destruct (N.eq_dec x 0) as [->|Hn]; [reflexivity|].
    apply N.add_lnot_diag_low.
    apply N.log2_lt_pow2; [lia|assumption]. }
  assert (E2 : Z.of_N x + Z.of_N (N.lxor x (N.ones 64)) = M - 1) by (rewrite <- N2Z.inj_add, E; reflexivity).
  apply N2Z.inj_lt in H. rewrite W_M in H. apply Z.mod_unique with (-1); lia.
Qed.

Lemma ofN_sub_wrap x y : (y < W)%N -> Z.of_N ((x + (W - y)) mod W) = wrap (Z.of_N x - Z.of_N y).
Proof.
  intros H. rewrite N2Z.inj_mod, N2Z.inj_add, N2Z.inj_sub by lia. rewrite W_M.
  replace (Z.of_N x + (M - Z.of_N y)) with (Z.of_N x - Z.of_N y + 1 * M) by ring. apply Z_mod_plus_full.
Qed.

(* [autorewrite with ofN] pushes Z.of_N inwards through every operation of the evaluator that needs no side
   condition, down to the operands, and writes the shift count as y mod 64 and the shifts as * 2^k and / 2^k, as
   the specification has them; subtraction (W - y) and signed division are not in it *)
#[local] Hint Rewrite N2Z.inj_add N2Z.inj_mul N2Z.inj_mod N2Z.inj_div N2Z.inj_pow N2Z.inj_min N2Z.inj_max
  b2n_zb ltb_N_Z leb_N_Z eqb_N_Z ofN_land ofN_lor ofN_lxor shcount_eq N.shiftl_mul_pow2 N.shiftr_div_pow2 : ofN.

(* An operator applied to subexpressions behaves as the operator applied to their values, written
   as literals, so the operators can be compared on literals without a second copy of the operator tables. *)
Inductive bnode : (expr -> expr -> expr) -> Prop :=
| bn_bin o : bnode (Bin o) | bn_min : bnode Min | bn_max : bnode Max.

Lemma eval_node_num sd mk a b x y : bnode mk -> eval sd a = Some x -> eval sd b = Some y ->
  eval sd (mk a b) = eval sd (mk (Num x) (Num y)).
Proof. intros [o| |] Ex Ey; [destruct o|..]; cbn [eval]; rewrite Ex, Ey; reflexivity. Qed.

Lemma gnu_node_num mk a b x y : bnode mk -> gnu_eval a = Some (Z.of_N x) -> gnu_eval b = Some (Z.of_N y) ->
  gnu_eval (mk a b) = gnu_eval (mk (Num x) (Num y)).
Proof. intros [o| |] Ex Ey; [destruct o|..]; cbn [gnu_eval]; rewrite Ex, Ey; reflexivity. Qed.

Lemma gnu_node_some mk a b z : bnode mk -> gnu_eval (mk a b) = Some z ->
  exists za zb, gnu_eval a = Some za /\ gnu_eval b = Some zb.
Proof.
  intros [o| |]; [destruct o|..]; cbn [gnu_eval]; destruct (gnu_eval a), (gnu_eval b); try discriminate; eauto.
Qed.

Definition agree (r : option N) (g : option Z) : Prop :=
  forall z, g = Some z -> exists x, r = Some x /\ Z.of_N x = z /\ (x < W)%N.
Definition agrees (e : expr) : Prop := agree (eval true e) (gnu_eval e).

Lemma agree_some (v : N) (t : Z) : Z.of_N v = t -> (v < W)%N -> agree (Some v) (Some t).
Proof. intros <- L z [= <-]. eauto. Qed.

(* for an operator whose two sides are the same expression once Z.of_N stands at the operands; leaves the bound *)
Ltac same_expr := apply agree_some; [autorewrite with ofN; reflexivity|].

(* Operator by operator: what differs from case to case is why the result is a 64-bit number *)
Lemma node_agrees mk x y : bnode mk -> (x < W)%N -> (y < W)%N -> agrees (mk (Num x) (Num y)).
Proof.
  intros Hmk Lx Ly. unfold agrees. destruct Hmk as [o| |]; [destruct o|..]; cbn [eval gnu_eval].
  - same_expr. apply mod_lt_W.
  - apply agree_some; [apply ofN_sub_wrap, Ly|apply mod_lt_W].
  - same_expr. apply mod_lt_W.
  - rewrite (eqb_N_Z y 0). change (Z.of_N 0) with 0. destruct (Z.of_N y =? 0); [intros z; discriminate|].
    unfold div_s. rewrite !sgn_sg. apply agree_some; apply of_sgn_spec.
  - same_expr. apply b2n_lt.
  - same_expr. apply b2n_lt.
  - same_expr. apply b2n_lt.
  - same_expr. apply b2n_lt.
  - same_expr. apply b2n_lt.
  - same_expr. apply b2n_lt.
  - same_expr. apply land_lt, Lx.
  - same_expr. apply lor_lt; assumption.
  - same_expr. apply lxor_lt; assumption.
  - same_expr. apply mod_lt_W.
  - same_expr. apply shiftr_lt, Lx.
  - (* LAnd: the left operand is tested first *)
    rewrite (eqb_N_Z x 0). change (Z.of_N 0) with 0. destruct (Z.of_N x =? 0).
    + apply agree_some; reflexivity.
    + same_expr. apply b2n_lt.
  - (* LOr: likewise *)
    rewrite (eqb_N_Z x 0). change (Z.of_N 0) with 0. destruct (Z.of_N x =? 0).
    + same_expr. apply b2n_lt.
    + apply agree_some; reflexivity.
  - same_expr. apply N.min_lt_iff. left. exact Lx.
  - same_expr. apply N.max_lub_lt; assumption.
Qed.

Lemma node_sound mk a b : bnode mk -> agrees a -> agrees b -> agrees (mk a b).
Proof.
  intros Hmk IHa IHb z Hz. destruct (gnu_node_some _ _ _ _ Hmk Hz) as (za & zb' & Ea & Eb).
  destruct (IHa _ Ea) as (x & Ex & <- & Lx). destruct (IHb _ Eb) as (y & Ey & <- & Ly).
  rewrite (gnu_node_num mk a b x y Hmk Ea Eb) in Hz. rewrite (eval_node_num true mk a b x y Hmk Ex Ey).
  apply node_agrees; assumption.
Qed.

Definition is_cmp (o : binop) : bool := mem_op o cmp_ops.
Definition strip_cmp (l : list level) : list level :=
  filter (fun lv => negb (forallb is_cmp (fst lv))) l.
Lemma levels_differ : wild_levels <> c_levels.
Proof. discriminate. Qed.
