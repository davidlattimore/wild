From Coq Require Import NArith ZArith List.
From WV Require Import C16.Model C16.Spec C16.Proofs.
Import ListNotations.
Open Scope Z_scope.

(* whenever GNU ld's semantics give a value, the evaluator (with signed division) gives the same 64-bit value:
   wrapping arithmetic, signed division, shift counts modulo 64, unsigned comparisons, 0/1 logic *)
Theorem C16_eval_agrees : forall e, wf e -> forall z, gnu_eval e = Some z ->
  exists x, eval true e = Some x /\ Z.of_N x = z /\ (x < W)%N.
Proof.
  intros e. change (wf e -> agrees e).
  induction e as [n|o a IHa b IHb|o a IHa|a IHa b IHb|a IHa b IHb|a IHa]; cbn [wf]; intros Hw.
  - intros z [= <-]. exists n. auto.
  - apply node_sound; [constructor|apply IHa, Hw|apply IHb, Hw].
  - (* Un: all three operators ask for the operand's value first *)
    intros z. cbn [gnu_eval]. destruct (gnu_eval a) as [za|] eqn:Ea; [|destruct o; discriminate].
    destruct (IHa Hw _ Ea) as (x & Ex & <- & Lx).
    destruct o; intros [= <-]; cbn [eval]; rewrite Ex; eexists; (split; [reflexivity|]).
    + split; [|apply b2n_lt]. rewrite b2n_zb, (eqb_N_Z x 0). reflexivity.
    + split; [apply lnot_spec, Lx|apply lxor_lt; [assumption|reflexivity]].
    + split; [exact (ofN_sub_wrap 0 x Lx)|apply mod_lt_W].
  - apply node_sound; [constructor|apply IHa, Hw|apply IHb, Hw].
  - apply node_sound; [constructor|apply IHa, Hw|apply IHb, Hw].
  - contradiction.
Qed.

(* an ASSERT fails with its message exactly when its expression evaluates to zero *)
Theorem C16_assert_fails_iff : forall e, assert_eval true e = FailMsg <-> eval true e = Some 0%N.
Proof.
  intros e. unfold assert_eval. destruct (eval true e) as [[|p]|]; split; intros H; try reflexivity; try discriminate.
Qed.

(* precedence: wild's level table equals GNU ld's up to the placement of the comparison operators *)
Theorem C16_levels_equal_except_known : strip_cmp wild_levels = strip_cmp c_levels.
Proof. reflexivity. Qed.

(* full-strength statements refuted: unsigned division (pinned tree, repaired) and comparison precedence (known finding) *)
Theorem C16_unsigned_division_refuted :
  let e := Bin Div (Bin Sub (Num 0) (Num 8)) (Num 2) in
  wf e /\ gnu_eval e = Some (M - 4) /\ eval false e = Some 9223372036854775804%N /\ eval true e = Some (W - 4)%N.
Proof. vm_compute. repeat split. Qed.
Theorem C16_precedence_refuted :
  let ts := [TNum 1; TOp BAnd; TNum 2; TOp Eq; TNum 2] in
  parse wild_levels ts = Some (Bin Eq (Bin BAnd (Num 1) (Num 2)) (Num 2)) /\
  parse c_levels ts = Some (Bin BAnd (Num 1) (Bin Eq (Num 2) (Num 2))).
Proof. vm_compute. split; reflexivity. Qed.

Check C16_eval_agrees : forall e, wf e -> forall z, gnu_eval e = Some z ->
  exists x, eval true e = Some x /\ Z.of_N x = z /\ (x < W)%N.
Print Assumptions C16_eval_agrees.
Print Assumptions C16_assert_fails_iff.
Print Assumptions C16_levels_equal_except_known.
Print Assumptions C16_unsigned_division_refuted.
Print Assumptions C16_precedence_refuted.
