From Coq Require Import ZArith Znumtheory List Bool Lia.
From WV Require Import C12.Types C12.Model C12.Spec.
Open Scope Z_scope.

Definition accept_ok (s : srow) (r : row) : bool :=
  (r_min r <=? acc_lo s) && (acc_hi s <=? rmax_eff r) && (acc_hi s <=? 2 ^ 63) &&
  (0 <? r_align r) && (acc_align s mod r_align r =? 0) && (W mod r_align r =? 0) && (0 <? acc_align s).
Definition reject_ok (s : srow) (r : row) : bool :=
  (rej_lo s <=? r_min r) && (rmax_eff r <=? rej_hi s).

Lemma verify_iff r v : v < 2 ^ 63 ->
  (verify r v = true <-> (v mod W) mod r_align r = 0 /\ r_min r <= v < rmax_eff r).
Proof.
  intros Hv. unfold verify, rmax_eff.
  (* lia reads &&, ||, =?, <=?, <? itself, here and below *)
  destruct (Z.eqb_spec (r_max r) I64MAX); intuition lia.
Qed.

Lemma accept_ok_sound s r v : accept_ok s r = true -> both_accept s v -> verify r v = true.
Proof.
  unfold accept_ok. rewrite !andb_true_iff, !Z.ltb_lt, !Z.eqb_eq.
  intros ((((((Hlo & Hhi) & H63) & Ha) & Hd) & HW) & Hs) [Hv Hal].
  apply verify_iff; [lia|]. split; [|lia].
  (* r_align divides 2^64, so reducing mod 2^64 does not disturb alignment; it divides acc_align, which divides v *)
  rewrite <- Zmod_div_mod; [|assumption|reflexivity|apply Z.mod_divide; [lia|assumption]].
  apply Z.mod_divide; [lia|]. apply Z.divide_trans with (acc_align s); apply Z.mod_divide; (lia || assumption).
Qed.

Lemma reject_ok_sound s r v : reject_ok s r = true -> both_reject s v -> verify r v = false.
Proof.
  unfold reject_ok. intros H [Hv Hr].
  apply not_true_iff_false. rewrite verify_iff by lia. lia.
Qed.

Definition spec_row_ok (s : srow) : bool :=
  match lookup (s_arch s) (s_type s) with
  | Some r => accept_ok s r && reject_ok s r
  | None => false
  end.

(* capacity of the field: the values that the written field represents without loss under one of
   the two readings (sign- or zero-extended), [-2^(w-1), 2^w) for w bits; Movnz kinds (insn 2) carry
   the sign in the opcode and so hold one more bit.  [fits r v] below says that v lies in the capacity of
   r's field; of a row without a range check ([nocheck]) it says at most that the field has 8 bytes.
   [trunc_ok] is the check on a row from which [fits] follows for every verified value; its clause on
   r_align is a check of the table in its own right, which [trunc_ok_sound] does not need *)
Definition trunc_ok (r : row) : bool :=
  match r_size r with
  | RBytes n =>
      if n =? 0 then true
      else if nocheck r then (n =? 8)
      else (- 2 ^ (8 * n - 1) <=? r_min r) && (r_max r <=? 2 ^ (8 * n)) && (0 <? n) && (n <=? 8)
  | RBits insn lo hi =>
      if nocheck r then true
      else if r_max r =? I64MAX then false
      else if insn =? 2 then (- 2 ^ hi <=? r_min r) && (r_max r <=? 2 ^ hi)
      else (- 2 ^ (hi - 1) <=? r_min r) && (r_max r <=? 2 ^ hi) &&
           (if (lo <=? 4) && negb (r_masked r) then r_align r mod 2 ^ lo =? 0 else true)
  end.

Definition fits (r : row) (v : Z) : Prop :=
  match r_size r with
  | RBytes n => n = 0 \/ (nocheck r = true /\ n = 8) \/ (- 2 ^ (8 * n - 1) <= v < 2 ^ (8 * n))
  | RBits insn lo hi =>
      nocheck r = true \/ (if insn =? 2 then - 2 ^ hi <= v < 2 ^ hi else - 2 ^ (hi - 1) <= v < 2 ^ hi)
  end.

Lemma trunc_ok_sound r v : v <= I64MAX -> trunc_ok r = true -> verify r v = true -> fits r v.
Proof.
  unfold trunc_ok, fits, I64MAX. intros Hi H Hv. apply verify_iff in Hv; [|lia]. destruct Hv as [_ Hv].
  unfold rmax_eff, I64MAX in Hv.
  destruct (r_size r) as [n|insn lo hi].
  - destruct (Z.eqb_spec n 0); [auto|]. destruct (nocheck r); [apply Z.eqb_eq in H; auto|]. right. right.
    destruct (Z.eqb_spec (r_max r) (2 ^ 63 - 1)) as [Ex|Ex]; [|lia].
    (* unbounded above but bounded below: 2^63 - 1 <= 2^(8n) forces n = 8 *)
    assert (n = 8 \/ n <= 7) as [->|Hn] by lia; [lia|].
    assert (2 ^ (8 * n) <= 2 ^ 56) by (apply Z.pow_le_mono_r; lia). lia.
  - destruct (nocheck r); [auto|]. right. destruct (Z.eqb_spec (r_max r) (2 ^ 63 - 1)); [discriminate|].
    destruct (insn =? 2); lia.
Qed.

(* the field determines the value up to the two readings: two values in the capacity with the same field differ by
   2^(8n) or 0 *)
Lemma field_bytes_faithful r n v : r_size r = RBytes n -> 0 < n <= 8 ->
  - 2 ^ (8 * n - 1) <= v < 2 ^ (8 * n) ->
  field_bytes n v = v \/ field_bytes n v = v + 2 ^ (8 * n).
Proof.
  intros _ Hn Hv. unfold field_bytes, W.
  assert (Hp : 0 < 2 ^ (8 * n)) by (apply Z.pow_pos_nonneg; lia).
  rewrite <- Zmod_div_mod; [|assumption|reflexivity|].
  2:{ exists (2 ^ (64 - 8 * n)). rewrite <- Z.pow_add_r by lia. f_equal. lia. }
  assert (H1 : 2 ^ (8 * n) = 2 * 2 ^ (8 * n - 1)).
  { replace (8 * n) with (1 + (8 * n - 1)) at 1 by lia. rewrite Z.pow_add_r by lia. reflexivity. }
  destruct (Z_lt_le_dec v 0).
  - right. symmetry. apply Z.mod_unique with (-1); lia.
  - left. apply Z.mod_small. lia.
Qed.

Definition width_ok (w : Z * Z * Z) : bool :=
  let '(a, t, n) := w in
  match lookup a t with
  | Some r => match r_size r with RBytes m => m =? n | _ => false end
  | None => false
  end.

(* r_arch: 0 x86-64, 1 AArch64, 2 RISC-V, 3 LoongArch (ARCHES of tools/gen_tables.py); the property and Spec.v are
   about the first two *)
Definition is_x86_or_a64 (r : row) : bool := (r_arch r =? 0) || (r_arch r =? 1).

Lemma spec_row_ok_inv s : spec_row_ok s = true ->
  exists r, lookup (s_arch s) (s_type s) = Some r /\ accept_ok s r = true /\ reject_ok s r = true.
Proof.
  (* generalize, not destruct: destruct tries to match the pattern against the unfolded table *)
  unfold spec_row_ok. generalize (lookup (s_arch s) (s_type s)). intros [r|] H; [|discriminate].
  apply andb_prop in H. eauto.
Qed.

Lemma width_ok_inv a t n : width_ok (a, t, n) = true -> exists r, lookup a t = Some r /\ r_size r = RBytes n.
Proof.
  unfold width_ok. generalize (lookup a t). intros [r|] H; [|discriminate]. exists r. split; [reflexivity|].
  destruct (r_size r) as [m|]; [|discriminate]. apply Z.eqb_eq in H. subst. reflexivity.
Qed.

Section Lift.
  Hypothesis Hspec : forallb spec_row_ok spec = true.

  Lemma spec_row r s : In s spec -> lookup (s_arch s) (s_type s) = Some r ->
    accept_ok s r = true /\ reject_ok s r = true.
  Proof using Hspec.
    intros Hin Hl. destruct (spec_row_ok_inv s (proj1 (forallb_forall _ _) Hspec s Hin)) as (r' & E & H).
    rewrite Hl in E. injection E as <-. assumption.
  Qed.
End Lift.
