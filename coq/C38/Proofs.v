From Coq Require Import ZArith List.
From WV Require Import C38.Model.
Open Scope Z_scope.

Lemma lookup_exe_first s rest :
  lookup s (O :: rest) =
  match exe_entry s with Defined a | Canonical a => Some a | _ => lookup s rest end.
Proof. reflexivity. Qed.

Lemma lookup_libs s : forall libs, ~ In O libs -> In (home s) libs ->
  lookup s libs = Some (home_addr s).
Proof.
  induction libs as [|m r IH]; intros Hn Hin; [contradiction|]. cbn [lookup].
  destruct m as [|m']; [exfalso; apply Hn; left; reflexivity|]. cbn [entry]. unfold lib_entry.
  destruct (Nat.eqb_spec (S m') (home s)) as [E|E]; [reflexivity|].
  apply IH; [intros H; apply Hn; right; exact H|]. destruct Hin as [H|H]; [congruence|exact H].
Qed.

Theorem one_address s libs m :
  ~ direct_library_function s ->
  ~ In O libs -> (home s = O \/ In (home s) libs) -> In m (O :: libs) ->
  observed s (O :: libs) m = observed s (O :: libs) O /\ exists a, observed s (O :: libs) O = Some a.
Proof.
  intros Hk Hn Hh _.
  (* what the executable's code binds to directly is what its dynamic symbol table announces *)
  assert (Hexe : observed s (O :: libs) O = lookup s (O :: libs)).
  { unfold observed. rewrite lookup_exe_first. unfold exe_entry. destruct (how s) eqn:Ew; try reflexivity.
    destruct (home s) eqn:Eh; [reflexivity|]. destruct (skind s) eqn:Ek; [|reflexivity].
    exfalso. apply Hk. repeat split; congruence. }
  (* and the search always ends: in the executable, or at the defining library *)
  assert (Hsome : exists a, lookup s (O :: libs) = Some a).
  { rewrite lookup_exe_first. unfold exe_entry. destruct (home s) eqn:Eh; [eexists; reflexivity|].
    rewrite (lookup_libs s libs Hn) by (destruct Hh; congruence).
    destruct (how s), (skind s); eexists; reflexivity. }
  rewrite Hexe. split; [|exact Hsome]. destruct m; [exact Hexe|reflexivity].
Qed.

Lemma lookup_gnu_libs s : forall libs, ~ In O libs -> lookup_gnu s libs = lookup s libs.
Proof.
  induction libs as [|[|m] r IH]; intros Hn; [reflexivity|exfalso; apply Hn; left; reflexivity|].
  cbn [lookup lookup_gnu entry entry_gnu]. rewrite IH; [reflexivity|]. intros H. apply Hn. right. exact H.
Qed.
