(* C38 — every function and object has one address across modules. *)
From Coq Require Import ZArith List.
From WV Require Import C38.Model C38.Proofs.
Import ListNotations.
Open Scope Z_scope.

(* For every symbol (function or object, defined by the executable or by any library, referred to by the executable
   directly, through the GOT, by calls only, or not at all) and every set of libraries: every module of the process
   observes the same address, and there is one. *)
Theorem C38_every_module_sees_the_same_address :
  forall s libs m,
    ~ direct_library_function s ->
    ~ In O libs -> (home s = O \/ In (home s) libs) -> In m (O :: libs) ->
    observed s (O :: libs) m = observed s (O :: libs) O /\ exists a, observed s (O :: libs) O = Some a.
Proof. exact one_address. Qed.
Print Assumptions C38_every_module_sees_the_same_address.

(* Since an object has one address, a store through one module's view is a store to the location every other module
   reads: stated as equality of the observed locations of two arbitrary modules. *)
Theorem C38_writes_are_visible_everywhere :
  forall s libs m1 m2,
    ~ direct_library_function s ->
    ~ In O libs -> (home s = O \/ In (home s) libs) -> In m1 (O :: libs) -> In m2 (O :: libs) ->
    observed s (O :: libs) m1 = observed s (O :: libs) m2.
Proof.
  intros s libs m1 m2 Hk Hn Hh H1 H2.
  destruct (one_address s libs m1 Hk Hn Hh H1) as (E1 & _). destruct (one_address s libs m2 Hk Hn Hh H2) as (E2 & _). congruence.
Qed.
Print Assumptions C38_writes_are_visible_everywhere.

(* The excluded class is a real failure of the current code: the executable's non-PIC code takes the address of a
   library function; it sees its own PLT entry, every library sees the function itself. *)
Theorem C38_refuted_for_a_directly_addressed_library_function :
  let s := {| skind := Func; home := 1%nat; home_addr := 0x7000; how := DirectAddress; exe_slot := 0x401030 |} in
  direct_library_function s /\ observed s [O; 1%nat] O = Some 0x401030 /\ observed s [O; 1%nat] 1%nat = Some 0x7000.
Proof. cbn. split; [split; [discriminate|split; reflexivity]|split; reflexivity]. Qed.
Print Assumptions C38_refuted_for_a_directly_addressed_library_function.

(* With GNU ld's canonical PLT entry (the undefined dynsym entry carries the PLT address) the class disappears. *)
Theorem C38_canonical_plt_would_close_the_gap :
  forall s libs m,
    ~ In O libs -> (home s = O \/ In (home s) libs) -> In m (O :: libs) ->
    observed_gnu s (O :: libs) m = observed_gnu s (O :: libs) O /\ exists a, observed_gnu s (O :: libs) O = Some a.
Proof.
  intros s libs m Hn Hh _.
  (* as for wild, and here for a directly addressed library function too: the announced address is the PLT entry *)
  assert (Hexe : observed_gnu s (O :: libs) O = lookup_gnu s (O :: libs)).
  { unfold observed_gnu. cbn [lookup_gnu entry_gnu]. unfold exe_entry_gnu, exe_entry.
    destruct (how s); try reflexivity. destruct (home s); [reflexivity|]. destruct (skind s); reflexivity. }
  assert (Hsome : exists a, lookup_gnu s (O :: libs) = Some a).
  { cbn [lookup_gnu entry_gnu]. unfold exe_entry_gnu, exe_entry. destruct (home s) eqn:Eh; [eexists; reflexivity|].
    rewrite (lookup_gnu_libs s libs Hn), (lookup_libs s libs Hn) by (destruct Hh; congruence).
    destruct (how s), (skind s); eexists; reflexivity. }
  rewrite Hexe. split; [|exact Hsome]. destruct m; [exact Hexe|reflexivity].
Qed.
Print Assumptions C38_canonical_plt_would_close_the_gap.

(* If the executable bound a direct reference at link time without announcing the address in its dynamic symbol table
   (no copy-relocated definition / no canonical PLT value), a library would see the library's own address. *)
Theorem C38_refuted_without_the_announcement :
  let s := {| skind := Object; home := 1%nat; home_addr := 0x7000; how := DirectAddress; exe_slot := 0x404000 |} in
  observed s [O; 1%nat] O = Some 0x404000 /\ lookup_silent s [O; 1%nat] = Some 0x7000 /\ lookup s [O; 1%nat] = Some 0x404000.
Proof. vm_compute. repeat split. Qed.
Print Assumptions C38_refuted_without_the_announcement.
