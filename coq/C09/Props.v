From Coq Require Import NArith List Bool.
From WV Require Import C09.Model C09.Proofs.
Import ListNotations.
Open Scope N_scope.

(* For every set of address sites (any places, odd or even, any section alignments), with or without
   -z pack-relative-relocs, and every load base: after the loader has applied the emitted RELA and RELR tables, every
   site holds its link-time target shifted by the base, and every other word is what it was. *)
Theorem C09_image_shifts_with_the_base :
  forall relr_en m0 sites base, NoDup (map s_place sites) ->
    (forall s, In s sites -> load base (emit relr_en m0 sites) (s_place s) = s_target s + base) /\
    (forall x, ~ In x (map s_place sites) -> load base (emit relr_en m0 sites) x = m0 x).
Proof. exact image_shift. Qed.
Print Assumptions C09_image_shifts_with_the_base.

(* every site is covered by exactly one dynamic relocation; every RELR entry is an even address of a site *)
Theorem C09_exactly_one_dynamic_relocation_per_site :
  forall relr_en m0 sites, NoDup (map s_place sites) ->
    let im := emit relr_en m0 sites in
    NoDup (map fst (rela im) ++ relr_places 0 (relr im)) /\
    (forall x, In x (map fst (rela im) ++ relr_places 0 (relr im)) <-> In x (map s_place sites)) /\
    Forall (fun e => N.even e = true) (relr im).
Proof. exact exactly_one_dynrel_per_site. Qed.
Print Assumptions C09_exactly_one_dynamic_relocation_per_site.

(* the space layout reserves (RELR vs RELA entry) is the space the writer uses, for every alignment, section address
   and offset — the defect repaired in /repo made these differ for alignment-1 sections at odd addresses *)
Theorem C23_relative_relocation_space_matches :
  forall relr align addr off, (2 <= align -> N.even addr = true) ->
    alloc_relr relr align off = write_relr relr align (addr + off).
Proof. exact alloc_matches_write. Qed.
Print Assumptions C23_relative_relocation_space_matches.

(* what the old rule (parity of the offset alone, for the reservation) did *)
Theorem C23_refuted_for_the_offset_parity_rule :
  let old_alloc (relr : bool) (off : N) := relr && N.even off in
  let old_write (relr : bool) (place : N) := relr && N.even place in
  old_alloc true 0 = true /\ old_write true (1 + 0) = false.
Proof. vm_compute. split; reflexivity. Qed.
Print Assumptions C23_refuted_for_the_offset_parity_rule.

Example C09_hypotheses_satisfiable :
  let sites := [{| s_place := 4096; s_target := 8192; s_align := 8 |}; {| s_place := 4105; s_target := 8200; s_align := 1 |}] in
  NoDup (map s_place sites) /\
  relr (emit true (fun _ => 7) sites) = [4096] /\ rela (emit true (fun _ => 7) sites) = [(4105, 8200)] /\
  load 65536 (emit true (fun _ => 7) sites) 4096 = 73728 /\ load 65536 (emit true (fun _ => 7) sites) 4105 = 73736.
Proof. split; [repeat constructor; cbn; intuition discriminate|vm_compute; repeat split]. Qed.
