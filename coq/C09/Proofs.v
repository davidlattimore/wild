From Coq Require Import NArith List Bool Sorting.Permutation.
From WV Require Import C09.Model.
Import ListNotations.
Open Scope N_scope.

Theorem alloc_matches_write relr align addr off :
  (2 <= align -> N.even addr = true) ->
  alloc_relr relr align off = write_relr relr align (addr + off).
Proof.
  intros Ha. unfold alloc_relr, write_relr. destruct relr; [|reflexivity]. cbn [andb].
  destruct (N.leb_spec 2 align) as [H|H]; [|rewrite andb_false_r; reflexivity].
  rewrite andb_true_r. cbn [andb]. rewrite N.even_add, (Ha H). destruct (N.even off); reflexivity.
Qed.

Lemma upd_same m a v : upd m a v a = v.
Proof. unfold upd. rewrite N.eqb_refl. reflexivity. Qed.
Lemma upd_other m a v x : x <> a -> upd m a v x = m x.
Proof. intros H. unfold upd. destruct (N.eqb_spec x a); [contradiction|reflexivity]. Qed.

(* a table of address entries only: the cursor plays no part and the decoder is a plain fold *)
Lemma relr_places_even l : Forall (fun e => N.even e = true) l -> forall c, relr_places c l = l.
Proof. induction 1 as [|e r He _ IH]; intros c; cbn [relr_places]; [reflexivity|]. rewrite He, IH. reflexivity. Qed.

Lemma apply_relr_even base l : Forall (fun e => N.even e = true) l ->
  forall m c, apply_relr base m c l = fold_left (reloc_word base) l m.
Proof. induction 1 as [|e r He _ IH]; intros m c; cbn [apply_relr fold_left]; [reflexivity|]. rewrite He. apply IH. Qed.

(* both loader passes change a word by looking at that word only, so the loaded value of one word is a fold over
   the tables that starts from its own contents *)
Lemma fold_at {E} (f : (N -> N) -> E -> N -> N) (g : N -> E -> N) x :
  (forall m e, f m e x = g (m x) e) -> forall l m, fold_left f l m x = fold_left g l (m x).
Proof. intros H. induction l as [|e l IH]; intros m; cbn [fold_left]; [reflexivity|]. rewrite IH, H. reflexivity. Qed.

Lemma fold_idle {E V} (g : V -> E -> V) l : (forall v e, In e l -> g v e = v) -> forall v, fold_left g l v = v.
Proof.
  induction l as [|e l IH]; intros H v; cbn [fold_left]; [reflexivity|].
  rewrite (H v e (or_introl eq_refl)). apply IH. intros v' e' He'. apply H. right. exact He'.
Qed.

Definition rela_at (base x v : N) (r : N * N) : N := if x =? fst r then base + snd r else v.
Definition relr_at (base x v a : N) : N := if x =? a then v + base else v.

Lemma load_at base im x : Forall (fun e => N.even e = true) (relr im) ->
  load base im x = fold_left (relr_at base x) (relr im) (fold_left (rela_at base x) (rela im) (mem im x)).
Proof.
  intros He. unfold load. rewrite (apply_relr_even _ _ He).
  rewrite (fold_at _ (relr_at base x)), (fold_at _ (rela_at base x)); [reflexivity| |]; intros m e.
  - reflexivity.
  - unfold reloc_word, relr_at, upd. destruct (N.eqb_spec x e) as [->|_]; reflexivity.
Qed.

Lemma emit_site_even en im s :
  Forall (fun e => N.even e = true) (relr im) -> Forall (fun e => N.even e = true) (relr (emit_site en im s)).
Proof.
  intros He. unfold emit_site, write_relr. destruct (en && _ && N.even (s_place s)) eqn:Ew; [|exact He].
  apply andb_prop in Ew. apply Forall_app. split; [exact He|]. constructor; [apply Ew|constructor].
Qed.

Lemma load_emit_site en base im s x :
  Forall (fun e => N.even e = true) (relr im) -> ~ In (s_place s) (map fst (rela im) ++ relr im) ->
  load base (emit_site en im s) x = if x =? s_place s then s_target s + base else load base im x.
Proof.
  intros He Hnew. rewrite !load_at by auto using emit_site_even. rewrite in_app_iff in Hnew.
  assert (Ha : forall v r, In r (rela im) -> rela_at base (s_place s) v r = v).
  { intros v r Hr. unfold rela_at. destruct (N.eqb_spec (s_place s) (fst r)) as [E|_]; [|reflexivity].
    exfalso. apply Hnew. left. rewrite E. apply in_map. exact Hr. }
  assert (Hr : forall v a, In a (relr im) -> relr_at base (s_place s) v a = v).
  { intros v a Hin. unfold relr_at. destruct (N.eqb_spec (s_place s) a) as [E|_]; [|reflexivity].
    exfalso. apply Hnew. right. rewrite E. exact Hin. }
  unfold emit_site. destruct (write_relr en (s_align s) (s_place s)); cbn [rela relr mem];
    rewrite fold_left_app; cbn [fold_left].
  - (* a RELR entry, applied last: the word holds the target, and no earlier entry touches it *)
    unfold relr_at at 1. destruct (N.eqb_spec x (s_place s)) as [->|Hx].
    + rewrite (fold_idle _ _ Hr), (fold_idle _ _ Ha), upd_same. reflexivity.
    + rewrite upd_other by exact Hx. reflexivity.
  - (* a RELA entry, the last of its table: no RELR entry touches the word afterwards *)
    unfold rela_at at 1. cbn [fst snd]. destruct (N.eqb_spec x (s_place s)) as [->|Hx].
    + rewrite (fold_idle _ _ Hr). apply N.add_comm.
    + rewrite upd_other by exact Hx. reflexivity.
Qed.

Lemma emit_snoc en m0 done s : emit en m0 (done ++ [s]) = emit_site en (emit en m0 done) s.
Proof. unfold emit. rewrite fold_left_app. reflexivity. Qed.

Lemma emit_even en m0 sites : Forall (fun e => N.even e = true) (relr (emit en m0 sites)).
Proof.
  induction sites as [|s done IH] using rev_ind; [constructor|]. rewrite emit_snoc. apply emit_site_even, IH.
Qed.

Lemma emit_tables en m0 sites :
  Permutation (map fst (rela (emit en m0 sites)) ++ relr (emit en m0 sites)) (map s_place sites).
Proof.
  induction sites as [|s done IH] using rev_ind; [constructor|]. rewrite emit_snoc, map_app. cbn [map].
  rewrite <- Permutation_cons_append. unfold emit_site. destruct (write_relr _ _ _); cbn [rela relr].
  - rewrite app_assoc, <- Permutation_cons_append. constructor. exact IH.
  - rewrite map_app, <- app_assoc. cbn [map fst app]. rewrite <- Permutation_middle. constructor. exact IH.
Qed.

Theorem image_shift relr_en m0 sites base :
  NoDup (map s_place sites) ->
  (forall s, In s sites -> load base (emit relr_en m0 sites) (s_place s) = s_target s + base) /\
  (forall x, ~ In x (map s_place sites) -> load base (emit relr_en m0 sites) x = m0 x).
Proof.
  induction sites as [|t done IH] using rev_ind; intros Hnd.
  - split; [intros s []|reflexivity].
  - rewrite map_app in Hnd. apply NoDup_remove in Hnd. rewrite app_nil_r in Hnd.
    destruct Hnd as [Hnd Hnew]. destruct (IH Hnd) as [IHs IHx].
    assert (Hstep := fun x => load_emit_site relr_en base _ t x (emit_even relr_en m0 done)
                       (fun H => Hnew (Permutation_in _ (emit_tables relr_en m0 done) H))).
    rewrite emit_snoc. split.
    + intros s Hs. rewrite Hstep. apply in_app_iff in Hs. destruct Hs as [Hs|[<-|[]]]; [|rewrite N.eqb_refl; reflexivity].
      destruct (N.eqb_spec (s_place s) (s_place t)) as [E|_]; [|apply IHs; exact Hs].
      exfalso. apply Hnew. rewrite <- E. apply in_map. exact Hs.
    + intros x Hx. rewrite map_app, in_app_iff in Hx. cbn [map In] in Hx. rewrite Hstep.
      destruct (N.eqb_spec x (s_place t)) as [E|_]; [exfalso; apply Hx; right; left; symmetry; exact E|].
      apply IHx. intros H. apply Hx. left. exact H.
Qed.

Theorem exactly_one_dynrel_per_site relr_en m0 sites :
  NoDup (map s_place sites) ->
  let im := emit relr_en m0 sites in
  NoDup (map fst (rela im) ++ relr_places 0 (relr im)) /\
  (forall x, In x (map fst (rela im) ++ relr_places 0 (relr im)) <-> In x (map s_place sites)) /\
  Forall (fun e => N.even e = true) (relr im).
Proof.
  intros Hnd im. pose proof (emit_even relr_en m0 sites) as He. pose proof (emit_tables relr_en m0 sites) as Hp.
  fold im in He, Hp. rewrite (relr_places_even _ He 0). split; [|split; [|exact He]].
  - exact (Permutation_NoDup (Permutation_sym Hp) Hnd).
  - intros x. split; apply Permutation_in; [|apply Permutation_sym]; exact Hp.
Qed.
