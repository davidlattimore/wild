From Coq Require Import NArith Lia.
From WV Require Import Cfs.Model Cfs.Proofs.
Open Scope N_scope.

(* the old output is in use: a shared object some process has mapped, or an executable some process is running *)
Definition in_use (c : cfg) : Prop := shared c = true \/ busy c = true.

(* The old inode i0 is intact and the output name no longer leads to it.  With default options and the old
   output in use, the first operation that touches the file system establishes this (the old name is parked or
   unlinked, never opened for writing); after that the link writes only where the output name leads. *)
Definition detached (s0 : fs) (i0 : N) (s : fs) : Prop :=
  data s i0 = data s0 i0 /\ i0 < next_ino s /\ names s Out <> Some i0.

Lemma detached_new_file s0 i0 s x :
  data s i0 = data s0 i0 -> i0 < next_ino s -> detached s0 i0 (new_file s Out x).
Proof.
  intros Hd Hi. unfold detached. cbn [new_file data next_ino names path_eqb].
  destruct (N.eqb_spec i0 (next_ino s)); [lia|]. repeat split; [exact Hd|lia|]. intros [= E]. lia.
Qed.

Lemma detached_unlink s0 i0 s :
  data s i0 = data s0 i0 -> i0 < next_ino s -> detached s0 i0 (unlink s Out).
Proof. intros Hd Hi. repeat split; [exact Hd|exact Hi|discriminate]. Qed.

Lemma detached_fill s0 i0 s b : detached s0 i0 s -> detached s0 i0 (fill s b).
Proof.
  intros (A & B & C). unfold fill, detached. destruct (names s Out) as [i|] eqn:E; [|rewrite E; auto].
  cbn [set_data data names next_ino]. destruct (N.eqb_spec i0 i); [congruence|]. rewrite E. auto.
Qed.

Theorem running_image_unchanged c s0 i0 :
  forced c = None -> dir_writable c = true -> in_use c ->
  tmp c <> Out -> names s0 Out = Some i0 -> i0 < next_ino s0 ->
  data (fst (link c s0)) i0 = data s0 i0.
Proof.
  intros Hf Hw Hu Ht Hn Hlt.
  assert (H1 : forall s1, on_set_size c (mode_of c s0) s0 = Some s1 ->
               if background c then detached s0 i0 s1 else s1 = s0).
  { unfold on_set_size, mode_of. rewrite Hf, Hn. intros s1. destruct (background c); [|intros [= <-]; reflexivity].
    destruct (shared c) eqn:Es.
    - (* a shared object: the old name is parked and the parking name removed *)
      unfold rename_w, rename, create_output. rewrite Hw, Hn. cbn [unlink bind_name names].
      rewrite (path_eqb_neq Out (tmp c)) by congruence. cbn [path_eqb].
      intros [= <-]. apply detached_new_file; auto.
    - (* an executable that is running: it cannot be opened for writing, so the old name is unlinked *)
      assert (Hb : busy c = true) by (destruct Hu; congruence).
      unfold create_output. rewrite Hn, Hb, Hw. intros [= <-]. apply detached_new_file; auto. }
  enough (HI : fst (link c s0) = s0 \/ detached s0 i0 (fst (link c s0))) by (destruct HI as [->|[H _]]; auto).
  apply link_inv with (I := fun s => s = s0 \/ detached s0 i0 s) (J := detached s0 i0).
  - left. reflexivity.
  - intros s1 E1. apply H1 in E1. destruct (background c); auto.
  - (* the start of the write: on the main thread the name is unlinked first, so the file is new *)
    unfold on_write_start. rewrite Hw. intros s1 s2 E1 _. apply H1 in E1. destruct (background c); [intros [= <-]; exact E1|].
    subst s1. unfold create_output. cbn [unlink_w unlink bind_name names path_eqb]. intros [= <-].
    apply detached_new_file; auto.
  - intros s b. apply detached_fill.
  - intros s H. right. exact H.
  - intros s H. right. rewrite Hw. destruct H as [->|(A & B & _)]; apply detached_unlink; auto.
Qed.
