(* C21 — relinking never alters a running program or loaded library. *)
From Coq Require Import NArith List.
From WV Require Import Cfs.Model C18.Proofs C21.Proofs.
Open Scope N_scope.

(* With default options (no forced write mode), in a directory wild may modify: whether the old output is a shared
   object that is mapped or an executable that is running, whichever thread count, wherever the link stops (success,
   error return or kill) — the inode the running process uses keeps its contents. *)
Theorem C21_running_image_unchanged :
  forall c s0 i0,
    forced c = None -> dir_writable c = true -> in_use c ->
    tmp c <> Out -> names s0 Out = Some i0 -> i0 < next_ino s0 ->
    data (fst (link c s0)) i0 = data s0 i0.
Proof. exact running_image_unchanged. Qed.
Print Assumptions C21_running_image_unchanged.

(* the relink still takes effect for new users of the path *)
Theorem C21_new_output_is_a_new_inode :
  let c := cfg_of true None true false Success false in
  exists i, names (fst (link c (fs0 true))) Out = Some i /\ i <> 7 /\ data (fst (link c (fs0 true))) i = Fresh true.
Proof. exists 100. vm_compute. repeat split; discriminate || reflexivity. Qed.
Print Assumptions C21_new_output_is_a_new_inode.

(* NOT covered: a directory in which the old name cannot be removed while the file itself is writable — the mapped
   inode is truncated and rewritten (known_findings.json C21-unwritable-directory; refuted below).  NOT covered either:
   --update-in-place (not default), which the hypothesis forced c = None leaves out. *)
Theorem C21_refuted_in_unwritable_directory :
  data (fst (link (cfg_ro true None true false Success false) (fs0 true))) 7 = Fresh true.
Proof. vm_compute. reflexivity. Qed.
Print Assumptions C21_refuted_in_unwritable_directory.

Example C21_hypotheses_satisfiable :
  in_use (cfg_of false None true true Success false) /\ names (fs0 true) Out = Some 7 /\ 7 < next_ino (fs0 true).
Proof. split; [right; reflexivity|split; reflexivity]. Qed.
