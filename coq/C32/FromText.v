(* C32 — from the text of a version script to the version of a symbol, entirely inside the model:
   text --(C22/VScript.v parse_version_script)--> versions with classified patterns
        --(pattern matching: equality, C15's model of the glob crate / POSIX fnmatch)--> per-node match bits
        --(C32/Model.v wild_match / gnu_match)--> verdict. *)
From Coq Require Import NArith List.
From WV Require Import C15.Model C22.VScript C32.Model.
Import ListNotations.
Open Scope N_scope.

Definition all_matchers (l : list pm) : list matcher :=
  flat_map (fun p => match p with Single m => [m] | Multiple ms => ms | Cxx _ => [] end) l.   (* C++ patterns match demangled names: outside this model *)

Section M.
  Variable glob : list N -> list N -> bool.     (* globmatch for wild, fnmatch for GNU ld *)

  Definition has_exact (ms : list matcher) (name : list N) : bool :=
    existsb (fun m => match m with MExact t => beqb t name | MEscaped t => beqb t name | _ => false end) ms.
  Definition has_nonstar (ms : list matcher) (name : list N) : bool :=
    existsb (fun m => match m with MNonStar p => glob p name | _ => false end) ms.
  Definition has_star (ms : list matcher) (name : list N) : bool :=
    existsb (fun m => match m with MStar p => glob p name | _ => false end) ms.
  Definition has_all (ms : list matcher) : bool := existsb (fun m => match m with MAll => true | _ => false end) ms.

  Definition node_of (b : body) (name : list N) : node :=
    let g := all_matchers (globals b) in
    let l := all_matchers (locals b) in
    {| gx := has_exact g name; lx := has_exact l name; gn := has_nonstar g name; gs := has_star g name; ga := has_all g;
       ln := has_nonstar l name; ls := has_star l name; la := has_all l |}.
End M.

(* for parse_version_script's parameter (which wildcard patterns the glob crate accepts): all of them *)
Definition any_glob (_ : list N) := true.

(* Some v = the script parses as a list of versions; None = parse error or an anonymous script *)
Definition nodes_of_text (glob : list N -> list N -> bool) (text name : list N) : option (list node) :=
  match parse_version_script any_glob text with
  | Ok (Versions vs) => Some (map (fun v => node_of glob (vbody v) name) vs)
  | _ => None
  end.
Definition wild_version_of (text name : list N) : option verdict :=
  match nodes_of_text globmatch text name with Some ns => Some (wild_match ns) | None => None end.
Definition gnu_version_of (text name : list N) : option verdict :=
  match nodes_of_text fnmatch text name with Some ns => Some (gnu_match ns) | None => None end.

From WV Require Import Base.ListX C15.Proofs C32.Proofs.

Lemma existsb_ext_in {A} (f g : A -> bool) l : (forall x, In x l -> f x = g x) -> existsb f l = existsb g l.
Proof. exact (ListX.existsb_ext_in f g l). Qed.

Definition globs_no_bs (ms : list matcher) : Prop :=
  forall m, In m ms -> match m with MStar p | MNonStar p => no_bs p | _ => True end.

Lemma wildcards_agree ms name : globs_no_bs ms ->
  has_nonstar globmatch ms name = has_nonstar fnmatch ms name /\ has_star globmatch ms name = has_star fnmatch ms name.
Proof.
  intros H. split; apply existsb_ext_in; intros m Hm; specialize (H m Hm); destruct m; try reflexivity;
    apply glob_is_fnmatch; exact H.
Qed.

Lemma node_of_agree b name :
  globs_no_bs (all_matchers (globals b)) -> globs_no_bs (all_matchers (locals b)) ->
  node_of globmatch b name = node_of fnmatch b name.
Proof.
  intros Hg Hl. unfold node_of.
  destruct (wildcards_agree _ name Hg) as [-> ->], (wildcards_agree _ name Hl) as [-> ->]. reflexivity.
Qed.

(* For every script text that parses as a list of versions whose wildcard patterns contain no backslash, and every
   symbol name whose match bits are canonical (C32/Model.v): the version wild assigns — through its own glob matcher —
   is the one GNU ld assigns through fnmatch. *)
Theorem version_from_text_as_gnu_ld text name vs :
  parse_version_script any_glob text = Ok (Versions vs) ->
  (forall v, In v vs -> globs_no_bs (all_matchers (globals (vbody v))) /\ globs_no_bs (all_matchers (locals (vbody v)))) ->
  canonical (map (fun v => node_of fnmatch (vbody v) name) vs) = true ->
  wild_version_of text name = gnu_version_of text name.
Proof.
  intros Hp Hnb Hc. unfold wild_version_of, gnu_version_of, nodes_of_text. rewrite Hp.
  assert (E : map (fun v => node_of globmatch (vbody v) name) vs = map (fun v => node_of fnmatch (vbody v) name) vs).
  { apply map_ext_in. intros v Hv. destruct (Hnb v Hv) as [H1 H2]. apply node_of_agree; assumption. }
  rewrite E. f_equal. apply wild_is_gnu. exact Hc.
Qed.
