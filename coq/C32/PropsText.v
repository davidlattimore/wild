(* C32 — from the text of the script: property theorem.  Models: C22/VScript.v (parser), C15/Model.v (glob crate and POSIX
   fnmatch), C32/Model.v (the two searches). *)
From Coq Require Import NArith List.
From WV Require Import C15.Model C22.VScript C32.Model C32.FromText.
Import ListNotations.
Open Scope N_scope.

(* For every script TEXT that parses as a list of versions whose wildcard patterns contain no backslash, and every symbol
   name for which the per-version match bits are canonical: the version node wild assigns to the symbol — parsing the
   text, matching with the glob crate, searching in its own order — is the node GNU ld assigns by fnmatch and its order. *)
Theorem C32_version_from_text_as_gnu_ld :
  forall text name vs,
    parse_version_script any_glob text = Ok (Versions vs) ->
    (forall v, In v vs -> globs_no_bs (all_matchers (globals (vbody v))) /\ globs_no_bs (all_matchers (locals (vbody v)))) ->
    canonical (map (fun v => node_of fnmatch (vbody v) name) vs) = true ->
    wild_version_of text name = gnu_version_of text name.
Proof. exact version_from_text_as_gnu_ld. Qed.
Print Assumptions C32_version_from_text_as_gnu_ld.

Example C32_from_text_example :
  (* V1 { global: foo; ba*; local: *; };\nV2 { global: bar; } V1;   symbols foo, bar, baz, qux *)
  let text := [86;49;32;123;32;103;108;111;98;97;108;58;32;102;111;111;59;32;98;97;42;59;32;108;111;99;97;108;58;32;42;59;32;125;59;10;
               86;50;32;123;32;103;108;111;98;97;108;58;32;98;97;114;59;32;125;32;86;49;59;10] in
  wild_version_of text [102;111;111] = Some (Global 0) /\ wild_version_of text [98;97;114] = Some (Global 1) /\
  wild_version_of text [98;97;122] = Some (Global 0) /\ wild_version_of text [113;117;120] = Some (Local 0) /\
  gnu_version_of text [98;97;114] = Some (Global 1).
Proof. vm_compute. repeat split; reflexivity. Qed.
