(* C32 — symbol versions follow the version script: the property theorems.
   Model: C32/Model.v (wild: RegularVersionScript::find_match; GNU ld: bfd_find_version_for_sym; a node is abstracted
   to the match bits of its pattern kinds for one symbol name). *)
From Coq Require Import List.
From WV Require Import C32.Model C32.Proofs.
Import ListNotations.

(* For every script (any number of nodes) and every symbol name whose wildcard matches are of one kind (only globs with
   `*`, or only globs without) and where no node matching the name only in `local:` follows a node matching it in
   `global:` — exact names anywhere, the bare `*` anywhere: wild assigns the node GNU ld assigns, and hides the symbol
   exactly when GNU ld hides it. *)
Theorem C32_version_node_as_gnu_ld :
  forall ns, canonical ns = true -> wild_match ns = gnu_match ns.
Proof. exact wild_is_gnu. Qed.
Print Assumptions C32_version_node_as_gnu_ld.

(* a symbol the script makes local is not exported: both orders return Local only from a `local:` match *)
Theorem C32_exact_match_decides_first :
  forall ns i gv lv, first_exact ns i <> NoMatch -> gnu_scan ns i gv lv = first_exact ns i.
Proof. exact gnu_scan_exact. Qed.
Print Assumptions C32_exact_match_decides_first.

Definition N_ (a b c d e f g h : bool) : node := {| gx := a; lx := b; gn := c; gs := d; ga := e; ln := f; ls := g; la := h |}.

(* outside the domain the statement is false of the model (and of wild: known_findings.json C32-wildcard-precedence) *)
Theorem C32_refuted_local_after_global :      (* V1 { global: f*; };  V2 { local: fo?; } V1;   symbol foo *)
  let ns := [N_ false false false true false false false false; N_ false false false false false true false false] in
  wild_match ns = Local 1 /\ gnu_match ns = Global 0.
Proof. vm_compute. split; reflexivity. Qed.
Print Assumptions C32_refuted_local_after_global.

Theorem C32_refuted_mixed_glob_kinds :        (* V1 { global: fo?; };  V2 { global: f*; } V1;   symbol foo *)
  let ns := [N_ false false true false false false false false; N_ false false false true false false false false] in
  wild_match ns = Global 0 /\ gnu_match ns = Global 1.
Proof. vm_compute. split; reflexivity. Qed.
Print Assumptions C32_refuted_mixed_glob_kinds.

(* non-vacuity: the usual idiom (exact names and `*`-globs in global, `local: *` in one node) is canonical *)
Example C32_hypotheses_satisfiable :
  let ns := [N_ false false false true false false false true; N_ true false false false false false false false] in
  canonical ns = true /\ wild_match ns = Global 1 /\ gnu_match ns = Global 1.
Proof. vm_compute. repeat split; reflexivity. Qed.
