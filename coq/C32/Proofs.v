From Coq Require Import List Bool.
From WV Require Import C32.Model.
Import ListNotations.

Lemma gnu_scan_exact ns : forall i gv lv,
  first_exact ns i <> NoMatch -> gnu_scan ns i gv lv = first_exact ns i.
Proof.
  induction ns as [|n r IH]; intros i gv lv H; [contradiction|].
  cbn [gnu_scan first_exact] in *. destruct (gx n); [reflexivity|]. destruct (lx n); [reflexivity|]. apply IH. exact H.
Qed.

(* without an exact match GNU ld's scan is wild's scan from the end over all wildcards, falling back on what was
   remembered before: a remembered global match differs from "the last matching node, global before local" only if a
   node that matches only in `local:` comes later *)
Lemma gnu_scan_wild ns : forall i gv lv,
  first_exact ns i = NoMatch -> local_not_after_global ns = true ->
  (gv <> None -> existsb (fun m => lw m && negb (gw m)) ns = false) ->
  gnu_scan ns i gv lv = orelse (last_with gw lw ns i) (gnu_scan [] i gv lv).
Proof.
  induction ns as [|n r IH]; intros i gv lv Hx Hl Hg; [reflexivity|].
  cbn [gnu_scan first_exact last_with local_not_after_global existsb] in *.
  destruct (gx n); [discriminate|]. destruct (lx n); [discriminate|].
  apply andb_prop in Hl. destruct Hl as [Hr Hn]. rewrite (IH _ _ _ Hx Hr).
  - destruct (last_with gw lw r (S i)); [reflexivity..|].
    destruct (gw n); [reflexivity|]. destruct (lw n); [|reflexivity].
    (* n matches in `local:` only, so nothing global was remembered *)
    destruct gv as [g|]; [|reflexivity]. specialize (Hg ltac:(discriminate)). discriminate Hg.
  - (* the side condition for the rest: a global match at n is remembered, and Hn speaks of it *)
    destruct (gw n); [intros _; apply negb_true_iff, Hn|].
    intros G. apply Hg in G. apply orb_false_iff in G. apply G.
Qed.

Lemma last_with_none g l ns : forall i, existsb (fun x => g x || l x) ns = false -> last_with g l ns i = NoMatch.
Proof.
  induction ns as [|n r IH]; intros i H; [reflexivity|]. cbn [existsb last_with] in *.
  apply orb_false_iff in H. destruct H as [H1 H2]. apply orb_false_iff in H1. destruct H1 as [Hg Hl].
  rewrite (IH (S i) H2), Hg, Hl. reflexivity.
Qed.

Lemma last_with_ext g l g' l' ns : forall i,
  (forall x, In x ns -> g x = g' x /\ l x = l' x) -> last_with g l ns i = last_with g' l' ns i.
Proof.
  induction ns as [|n r IH]; intros i H; [reflexivity|]. cbn [last_with].
  rewrite (IH (S i)) by (intros x Hx; apply H; right; exact Hx).
  destruct (H n (or_introl eq_refl)) as [-> ->]. reflexivity.
Qed.

Lemma existsb_false_all {A} (f : A -> bool) l : existsb f l = false -> forall x, In x l -> f x = false.
Proof.
  intros H x Hx. destruct (f x) eqn:E; [|reflexivity]. rewrite <- H. symmetry. apply existsb_exists. eauto.
Qed.

Lemma one_class_scan ns i : one_class ns = true ->
  orelse (last_with gn ln ns i) (last_with gs ls ns i) = last_with gw lw ns i.
Proof.
  intros H. apply negb_true_iff, andb_false_iff in H. unfold any in H.
  destruct H as [H|H]; rewrite (last_with_none _ _ ns i H).
  - apply last_with_ext. intros x Hx. apply (existsb_false_all _ _ H), orb_false_iff in Hx.
    unfold gw, lw. destruct Hx as [-> ->]. split; reflexivity.
  - rewrite (last_with_ext gn ln gw lw); [destruct (last_with gw lw ns i); reflexivity|].
    intros x Hx. apply (existsb_false_all _ _ H), orb_false_iff in Hx.
    unfold gw, lw. destruct Hx as [-> ->]. rewrite !orb_false_r. split; reflexivity.
Qed.

Theorem wild_is_gnu ns : canonical ns = true -> wild_match ns = gnu_match ns.
Proof.
  intros Hc. apply andb_prop in Hc. destruct Hc as [H1 H2]. unfold wild_match, gnu_match.
  destruct (first_exact ns 0) eqn:Ex; [rewrite gnu_scan_exact, Ex by congruence; reflexivity..|].
  rewrite (gnu_scan_wild ns 0 None None Ex H2) by congruence. cbn [orelse gnu_scan].
  rewrite <- (one_class_scan ns 0 H1).
  destruct (last_with gn ln ns 0), (last_with gs ls ns 0); reflexivity.
Qed.
