From Coq Require Import NArith List Bool Arith.
From WV Require Import C02.Model.
Import ListNotations.

Definition nd_strong (c : cand) : bool := negb (dyn c) && is_strong (str c).
Definition nd_weak (c : cand) : bool := negb (dyn c) && match str c with Weak | Unique => true | _ => false end.
Definition nd_common (c : cand) (n : N) : Prop := dyn c = false /\ str c = Common n.
Definition nd_defined (c : cand) : bool := negb (dyn c) && negb (is_undef (str c)).

Fixpoint find_first (p : cand -> bool) (cs : list cand) : option nat :=
  match cs with
  | [] => None
  | c :: t => if p c then Some 0 else option_map S (find_first p t)
  end.

Definition keep_first {A} (o : option A) (b : bool) (x : A) : option A :=
  match o with Some y => Some y | None => if b then Some x else None end.

Lemma find_first_app p l t :
  find_first p (l ++ t) =
  match find_first p l with Some i => Some i | None => option_map (Nat.add (length l)) (find_first p t) end.
Proof.
  induction l as [|a l IH]; cbn [app find_first length].
  - destruct (find_first p t); reflexivity.
  - destruct (p a); [reflexivity|]. rewrite IH. destruct (find_first p l); [reflexivity|].
    destruct (find_first p t); reflexivity.
Qed.

Lemma find_first_snoc p pre c : find_first p (pre ++ [c]) = keep_first (find_first p pre) (p c) (length pre).
Proof. rewrite find_first_app. cbn. destruct (p c); cbn; rewrite ?Nat.add_0_r; reflexivity. Qed.

Lemma find_first_some p cs i : find_first p cs = Some i ->
  exists c, nth_error cs i = Some c /\ p c = true /\ forall j c', (j < i)%nat -> nth_error cs j = Some c' -> p c' = false.
Proof.
  revert i. induction cs as [|a t IH]; intros i H; [discriminate|]. cbn [find_first] in H.
  destruct (p a) eqn:Ea.
  - injection H as <-. exists a. split; [reflexivity|]. split; [assumption|]. intros j c' Hj. destruct (Nat.nlt_0_r _ Hj).
  - destruct (find_first p t) as [k|] eqn:Ek; [|discriminate]. injection H as <-.
    destruct (IH k eq_refl) as (c & Hc & Hp & Hlt). exists c. split; [assumption|]. split; [assumption|].
    intros [|j] c' Hj Hn; cbn in Hn; [congruence|]. apply (Hlt j); [apply Nat.succ_lt_mono, Hj|assumption].
Qed.

Lemma find_first_none p cs : find_first p cs = None -> forall i c, nth_error cs i = Some c -> p c = false.
Proof.
  induction cs as [|a t IH]; intros H i c Hn; [destruct i; discriminate|]. cbn [find_first] in H.
  destruct (p a) eqn:Ea; [discriminate|]. destruct (find_first p t) eqn:Et; [discriminate|].
  destruct i; cbn in Hn; [congruence|]. apply (IH eq_refl i). assumption.
Qed.

Lemma nth_error_snoc {A} (l : list A) x : forall i y, nth_error (l ++ [x]) i = Some y ->
  nth_error l i = Some y \/ (i = length l /\ y = x).
Proof.
  induction l as [|a l IH]; intros [|i] y H; cbn in H.
  - right. injection H as <-. split; reflexivity.
  - destruct i; discriminate.
  - left. exact H.
  - destruct (IH i y H) as [H'|[-> ->]]; [left; exact H'|right; split; reflexivity].
Qed.

Lemma nth_error_middle {A} (l t : list A) x : nth_error (l ++ x :: t) (length l) = Some x.
Proof. induction l as [|a l IH]; [reflexivity|exact IH]. Qed.

Lemma nth_error_app_Some {A} (l t : list A) i x : nth_error l i = Some x -> nth_error (l ++ t) i = Some x.
Proof. intros H. rewrite nth_error_app1; [exact H|]. apply nth_error_Some. congruence. Qed.

Definition step (s : sel) (i : nat) (c : cand) : sel := if dyn c then s else consider s i (str c).

Definition larger (o : option (N * nat)) (n : N) (i : nat) : option (N * nat) :=
  match o with Some (p, _) => if (n <=? p)%N then o else Some (n, i) | None => Some (n, i) end.

Lemma step_fields s i c : step s i c =
  {| first_strong := keep_first (first_strong s) (nd_strong c) i;
     max_common := if dyn c then max_common s
                   else match str c with Common n => larger (max_common s) n i | _ => max_common s end;
     first_weak := keep_first (first_weak s) (nd_weak c) i |}.
Proof.
  unfold step, nd_strong, nd_weak, larger. destruct s as [fs mc fw], (dyn c); cbn; [destruct fs, fw; reflexivity|].
  destruct (str c); cbn; destruct fs, fw; try reflexivity;
    destruct mc as [[p j]|]; try reflexivity; destruct (_ <=? _)%N; reflexivity.
Qed.

Definition is_max (pre : list cand) (o : option (N * nat)) : Prop :=
  match o with
  | None => forall k c m, nth_error pre k = Some c -> ~ nd_common c m
  | Some (n, j) =>
      (exists c, nth_error pre j = Some c /\ nd_common c n) /\
      forall k c m, nth_error pre k = Some c -> nd_common c m -> (m <= n)%N /\ (m = n -> (j <= k)%nat)
  end.

Record Inv (pre : list cand) (s : sel) : Prop := {
  inv_strong : first_strong s = find_first nd_strong pre;
  inv_weak : first_weak s = find_first nd_weak pre;
  inv_common : is_max pre (max_common s)
}.

Lemma inv0 : Inv [] sel0.
Proof. split; [reflexivity..|]. intros [|k] c m H; discriminate. Qed.

Lemma nd_common_inj c m n : nd_common c m -> nd_common c n -> m = n.
Proof. intros [_ Hm] [_ Hn]. congruence. Qed.

Lemma commons_snoc pre c (Q : N -> nat -> Prop) :
  (forall k c' m, nth_error pre k = Some c' -> nd_common c' m -> Q m k) ->
  (forall m, nd_common c m -> Q m (length pre)) ->
  forall k c' m, nth_error (pre ++ [c]) k = Some c' -> nd_common c' m -> Q m k.
Proof.
  intros Hold Hnew k c' m Hk Hm. apply nth_error_snoc in Hk.
  destruct Hk as [Hk|[-> ->]]; [exact (Hold k c' m Hk Hm)|exact (Hnew m Hm)].
Qed.

Lemma is_max_skip pre o c : is_max pre o -> (forall m, ~ nd_common c m) -> is_max (pre ++ [c]) o.
Proof.
  intros H Hc. destruct o as [[n j]|]; cbn [is_max] in *.
  - destruct H as [(c0 & Hc0 & Hn) Hall]. split.
    + exists c0. split; [apply nth_error_app_Some, Hc0|exact Hn].
    + apply commons_snoc; [exact Hall|]. intros m Hm. destruct (Hc m Hm).
  - exact (commons_snoc pre c (fun _ _ => False) H Hc).
Qed.

Lemma is_max_larger pre o c n : is_max pre o -> nd_common c n -> is_max (pre ++ [c]) (larger o n (length pre)).
Proof.
  intros H Hc.
  assert (New : exists c0, nth_error (pre ++ [c]) (length pre) = Some c0 /\ nd_common c0 n).
  { exists c. split; [apply nth_error_middle|exact Hc]. }
  destruct o as [[p j]|]; cbn [larger is_max] in *.
  - destruct H as [(c0 & Hc0 & Hp) Hall].
    destruct (N.leb_spec n p) as [Hle|Hlt]; cbn [is_max].
    + (* the earlier maximum stands, also against c of equal size *)
      split; [exists c0; split; [apply nth_error_app_Some, Hc0|exact Hp]|].
      apply commons_snoc; [exact Hall|]. intros m Hm. rewrite (nd_common_inj c m n Hm Hc).
      split; [exact Hle|]. intros _. apply Nat.lt_le_incl, nth_error_Some. congruence.
    + (* c is the new maximum, strictly above everything earlier *)
      split; [exact New|]. apply commons_snoc.
      * intros k c' m Hk Hm. destruct (Hall k c' m Hk Hm) as [Hm' _].
        assert (Hmn : (m < n)%N) by (apply (N.le_lt_trans _ p); assumption).
        split; [apply N.lt_le_incl, Hmn|]. intros ->. destruct (N.lt_irrefl _ Hmn).
      * intros m Hm. rewrite (nd_common_inj c m n Hm Hc). split; reflexivity.
  - split; [exact New|]. apply commons_snoc.
    + intros k c' m Hk Hm. destruct (H k c' m Hk Hm).
    + intros m Hm. rewrite (nd_common_inj c m n Hm Hc). split; reflexivity.
Qed.

Lemma inv_step pre s c : Inv pre s -> Inv (pre ++ [c]) (step s (length pre) c).
Proof.
  intros [I1 I2 I3]. rewrite step_fields. split; cbn [first_strong first_weak max_common].
  - rewrite find_first_snoc, I1. reflexivity.
  - rewrite find_first_snoc, I2. reflexivity.
  - destruct (dyn c) eqn:Hd.
    + apply is_max_skip; [assumption|]. intros m [E _]. congruence.
    + destruct (str c) as [| | | |n] eqn:Es; [..|apply is_max_larger; [assumption|split; assumption]].
      all: apply is_max_skip; [assumption|]; intros m [_ E]; congruence.
Qed.

Lemma best_not_dynamic cs s i : Inv cs s -> best s = Some i -> exists ci, nth_error cs i = Some ci /\ dyn ci = false.
Proof.
  intros [I1 I2 I3] H. unfold best in H. rewrite I1, I2 in H.
  destruct (find_first nd_strong cs) as [a|] eqn:Es.
  - injection H as <-. destruct (find_first_some _ _ _ Es) as (c & Hc & Hp & _).
    exists c. split; [exact Hc|]. unfold nd_strong in Hp. destruct (dyn c); [discriminate|reflexivity].
  - destruct (max_common s) as [[n j]|]; cbn [is_max] in I3.
    + injection H as <-. destruct I3 as [(c & Hc & Hd & _) _]. exists c. split; assumption.
    + destruct (find_first_some _ _ _ H) as (c & Hc & Hp & _).
      exists c. split; [exact Hc|]. unfold nd_weak in Hp. destruct (dyn c); [discriminate|reflexivity].
Qed.

Lemma best_none_undefined cs s : Inv cs s -> best s = None ->
  forall k c, nth_error cs k = Some c -> nd_defined c = false.
Proof.
  intros [I1 I2 I3] H k c Hk. unfold best in H. rewrite I1, I2 in H.
  destruct (find_first nd_strong cs) eqn:Es; [discriminate|].
  destruct (max_common s) as [[n j]|]; [discriminate|].
  pose proof (find_first_none _ _ Es k c Hk) as S1. pose proof (find_first_none _ _ H k c Hk) as S2.
  unfold nd_defined, nd_strong, nd_weak in *. destruct (dyn c) eqn:Hd; [reflexivity|].
  destruct (str c) eqn:Ec; [reflexivity|discriminate S2|discriminate S2|discriminate S1|].
  destruct (I3 k c size Hk). split; assumption.
Qed.

Section Pass1.
  Variable allow : bool.
  Variable all : list cand.

  Lemma pass1_cons c t i s : pass1 allow all (c :: t) i s =
    match (if nd_strong c then first_strong s else None) with
    | Some e => if (negb (comdat_of all e) || negb (comdat c)) && negb allow then inr (e, i)
                else pass1 allow all t (S i) (step s i c)
    | None => pass1 allow all t (S i) (step s i c)
    end.
  Proof. cbn [pass1]. unfold nd_strong, step. destruct (dyn c); reflexivity. Qed.

  Definition dup_free (pre : list cand) : Prop :=
    forall a, find_first nd_strong pre = Some a -> forall b c, (a < b)%nat -> nth_error pre b = Some c ->
      nd_strong c = true -> allow = true \/ (comdat_of all a = true /\ comdat c = true).

  Lemma dup_free_nil : dup_free [].
  Proof. intros a H. discriminate. Qed.

  Lemma dup_free_snoc pre c : dup_free pre ->
    (nd_strong c = true -> forall a, find_first nd_strong pre = Some a ->
       allow = true \/ (comdat_of all a = true /\ comdat c = true)) ->
    dup_free (pre ++ [c]).
  Proof.
    intros HD Hc a Ha b c' Hab Hn Hs. rewrite find_first_snoc in Ha.
    destruct (find_first nd_strong pre) as [a0|] eqn:Ef; cbn in Ha.
    - injection Ha as <-. apply nth_error_snoc in Hn. destruct Hn as [Hn|[_ ->]].
      + exact (HD a0 Ef b c' Hab Hn Hs).
      + exact (Hc Hs a0 eq_refl).
    - apply nth_error_snoc in Hn. destruct Hn as [Hn|[-> ->]].
      + rewrite (find_first_none _ _ Ef b c' Hn) in Hs. discriminate.
      + rewrite Hs in Ha. injection Ha as <-. destruct (Nat.lt_irrefl _ Hab).
  Qed.

  Definition pass1_ok (r : sel + nat * nat) : Prop :=
    match r with
    | inl s' => Inv all s' /\ dup_free all
    | inr (a, b) => allow = false /\ find_first nd_strong all = Some a /\ (a < b)%nat /\
                    exists c, nth_error all b = Some c /\ nd_strong c = true /\
                              (comdat_of all a = false \/ comdat c = false)
    end.

  (* what the test of pass1 says, in the terms of dup_free and pass1_ok *)
  Lemma clash_spec (x y a : bool) :
    if (negb x || negb y) && negb a then a = false /\ (x = false \/ y = false) else a = true \/ (x = true /\ y = true).
  Proof. destruct x, y, a; cbn; auto. Qed.

  Lemma pass1_spec : forall cs pre s, all = pre ++ cs -> Inv pre s -> dup_free pre ->
    pass1_ok (pass1 allow all cs (length pre) s).
  Proof.
    induction cs as [|c t IH]; intros pre s Hall HI HD.
    - rewrite app_nil_r in Hall. subst. split; assumption.
    - (* K: the pass goes on, once the new candidate is seen not to clash *)
      pose proof (fun D => IH (pre ++ [c]) (step s (length pre) c) (eq_trans Hall (app_assoc pre [c] t))
                              (inv_step _ _ c HI) (dup_free_snoc _ _ HD D)) as K.
      rewrite app_length, Nat.add_1_r in K.
      rewrite pass1_cons, (inv_strong _ _ HI).
      destruct (nd_strong c) eqn:Hs; [|apply K; discriminate].
      destruct (find_first nd_strong pre) as [e|] eqn:Ef; [|apply K; discriminate].
      pose proof (clash_spec (comdat_of all e) (comdat c) allow) as T.
      destruct ((negb (comdat_of all e) || negb (comdat c)) && negb allow).
      + destruct T as [Ea Hcom]. split; [exact Ea|].
        split; [rewrite Hall, find_first_app, Ef; reflexivity|].
        split; [destruct (find_first_some _ _ _ Ef) as (c0 & Hc0 & _); apply nth_error_Some; congruence|].
        exists c. split; [rewrite Hall; apply nth_error_middle|]. split; assumption.
      + apply K. intros _ a [= <-]. exact T.
  Qed.
End Pass1.

Lemma select_pass1 allow cs : pass1_ok allow cs (pass1 allow cs cs 0 sel0).
Proof. exact (pass1_spec allow cs cs [] sel0 eq_refl inv0 (dup_free_nil _ _)). Qed.

Definition has (p : cand -> bool) (cs : list cand) : Prop := exists i c, nth_error cs i = Some c /\ p c = true.
