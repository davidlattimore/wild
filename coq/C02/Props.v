(* Each theorem comes from what the first pass over the whole list ends in (Proofs.select_pass1) and from what `best`
   picks from that state. *)
From Coq Require Import NArith List.
From WV Require Import C02.Model C02.Proofs.

(* the four selection rules, for every candidate list in command-line order, one conjunct each: the first non-dynamic
   strong definition is selected; without one, a largest non-dynamic common, the first among equals; without a common
   either, the first non-dynamic weak or unique definition; and a shared object's definition is selected only when no
   candidate is a non-dynamic definition *)
Theorem C02_selection_rules : forall allow cs i, select allow cs = Ok i ->
  (forall a, find_first nd_strong cs = Some a -> i = a) /\
  (find_first nd_strong cs = None -> forall k c m, nth_error cs k = Some c -> nd_common c m ->
     exists ci n, nth_error cs i = Some ci /\ nd_common ci n /\ (m <= n)%N /\ (m = n -> (i <= k)%nat)) /\
  (find_first nd_strong cs = None -> (forall k c m, nth_error cs k = Some c -> ~ nd_common c m) ->
     forall w, find_first nd_weak cs = Some w -> i = w) /\
  (forall ci, nth_error cs i = Some ci -> dyn ci = true -> forall k c, nth_error cs k = Some c -> nd_defined c = false).
Proof.
  intros allow cs i H. unfold select in H. pose proof (select_pass1 allow cs) as P.
  destruct (pass1 allow cs cs 0 sel0) as [s|[a b]]; [|discriminate]. destruct P as [I _].
  assert (R4 : forall ci, nth_error cs i = Some ci -> dyn ci = true ->
                 forall k c, nth_error cs k = Some c -> nd_defined c = false).
  { destruct (best s) as [j|] eqn:Eb.
    - injection H as <-. intros ci Hci Hdy. destruct (best_not_dynamic _ _ _ I Eb) as (c' & Hc' & Hd). congruence.
    - intros _ _ _. exact (best_none_undefined _ _ I Eb). }
  destruct I as [I1 I2 I3]. unfold best in H. rewrite I1, I2 in H.
  refine (conj _ (conj _ (conj _ R4))).
  - intros a Ha. rewrite Ha in H. congruence.
  - intros Hs k c m Hk Hc. rewrite Hs in H.
    destruct (max_common s) as [[n j]|]; cbn [is_max] in I3; [|destruct (I3 k c m Hk Hc)].
    injection H as <-. destruct I3 as [(cj & Hcj & Hcjc) Hall].
    exists cj, n. destruct (Hall k c m Hk Hc). auto.
  - intros Hs Hno w Hw. rewrite Hs, Hw in H.
    destruct (max_common s) as [[n j]|]; cbn [is_max] in I3; [|congruence].
    destruct I3 as [(cj & Hcj & Hcjc) _]. destruct (Hno j cj n Hcj Hcjc).
Qed.

(* duplicate-definition error: exactly two non-dynamic strong definitions, the first of them and a later one, not both in COMDAT groups *)
Theorem C02_dup_error_sound : forall cs a b, select false cs = DupErr a b ->
  find_first nd_strong cs = Some a /\ (a < b)%nat /\
  exists ca cb, nth_error cs a = Some ca /\ nth_error cs b = Some cb /\ nd_strong cb = true /\
                (comdat ca = false \/ comdat cb = false).
Proof.
  intros cs a b H. unfold select in H. pose proof (select_pass1 false cs) as P.
  destruct (pass1 false cs cs 0 sel0) as [s|[a' b']].
  - destruct (best s); [discriminate|]. destruct (pass2 cs 0); discriminate.
  - injection H as <- <-. destruct P as (_ & Hf & Hab & c & Hc & Hs & Hcom).
    destruct (find_first_some _ _ _ Hf) as (ca & Hca & _).
    unfold comdat_of in Hcom. rewrite Hca in Hcom.
    split; [exact Hf|]. split; [exact Hab|]. exists ca, c. repeat split; assumption.
Qed.

(* conversely, where selection succeeds every later non-dynamic strong definition is tolerated: by
   --allow-multiple-definition, or because it and the first are both in COMDAT groups *)
Theorem C02_dup_error_complete : forall cs i allow, select allow cs = Ok i ->
  forall a, find_first nd_strong cs = Some a -> forall b cb, (a < b)%nat -> nth_error cs b = Some cb -> nd_strong cb = true ->
  allow = true \/ (comdat_of cs a = true /\ comdat cb = true).
Proof.
  intros cs i allow H. unfold select in H. pose proof (select_pass1 allow cs) as P.
  destruct (pass1 allow cs cs 0 sel0) as [s|[a' b']]; [exact (proj2 P)|discriminate].
Qed.

(* under --allow-multiple-definition no candidate list is rejected *)
Theorem C02_allow_multiple_never_errors : forall cs, exists i, select true cs = Ok i.
Proof.
  intros cs. unfold select. pose proof (select_pass1 true cs) as P.
  destruct (pass1 true cs cs 0 sel0) as [s|[a b]].
  - destruct (best s); [eauto|]. destruct (pass2 cs 0); eauto.
  - destruct P as [P _]. discriminate.
Qed.

Print Assumptions C02_selection_rules.
Print Assumptions C02_dup_error_sound.
Print Assumptions C02_dup_error_complete.
Print Assumptions C02_allow_multiple_never_errors.
