From Coq Require Import NArith Lia.
From WV Require Import Cfs.Model Cfs.Proofs.
Open Scope N_scope.

(* what a link may have done to the file system so far, relative to the start s0 *)
Record rel (s0 s : fs) : Prop := {
  r_names : forall p, p <> Out -> names s p = names s0 p;
  r_data : forall i, i < next_ino s0 -> names s0 Out <> Some i -> data s i = data s0 i;
  r_next : next_ino s0 <= next_ino s;
  r_out : names s Out = None \/ names s Out = names s0 Out \/ exists i, names s Out = Some i /\ next_ino s0 <= i }.

Definition wf (t : path) (s0 : fs) : Prop :=
  t <> Out /\ names s0 t = None /\ (forall i, names s0 Out = Some i -> i < next_ino s0).

Lemma rel_refl s0 : rel s0 s0.
Proof. constructor; auto; lia. Qed.

Lemma rel_unlink_out s0 s : rel s0 s -> rel s0 (unlink s Out).
Proof.
  intros [Hnames Hdata Hnext Hout]. constructor; cbn [unlink bind_name names data next_ino]; auto.
  intros p Hp. rewrite (path_eqb_neq p Out Hp). auto.
Qed.

Lemma rel_new_file s0 s c : rel s0 s -> rel s0 (new_file s Out c).
Proof.
  intros [Hnames Hdata Hnext Hout]. constructor; cbn [new_file names data next_ino path_eqb].
  - intros p Hp. rewrite (path_eqb_neq p Out Hp). auto.
  - intros i Hi Hn. destruct (N.eqb_spec i (next_ino s)); [lia|]. auto.
  - lia.
  - eauto.
Qed.

Lemma rel_set_out_data s0 s i c : rel s0 s -> names s Out = Some i -> rel s0 (set_data s i c).
Proof.
  intros [Hnames Hdata Hnext Hout] Hi. constructor; cbn [set_data names data next_ino]; auto.
  intros j Hj Hnj. destruct (N.eqb_spec j i) as [->|Hne]; [exfalso|auto].
  (* the inode written cannot be one that existed before, other than the old output's: by r_out the name is
     bound to the old output's inode or to a new one *)
  rewrite Hi in Hout. destruct Hout as [E|[E|(k & [= ->] & Hk)]].
  - discriminate E.
  - exact (Hnj (eq_sym E)).
  - lia.
Qed.

Lemma rel_create_output s0 s c m s' : rel s0 s -> create_output c m s = Some s' -> rel s0 s'.
Proof.
  intros Hr H. destruct (create_output_cases c m s s' H) as [(s1 & x & [->| ->] & ->)|(i & x & E & ->)].
  - apply rel_new_file, Hr.
  - apply rel_new_file, rel_unlink_out, Hr.
  - apply rel_set_out_data; assumption.
Qed.

Lemma rel_park t s0 s w : t <> Out -> names s0 t = None -> rel s0 s ->
  rel s0 (let (s', ok) := rename_w w s Out t in if ok then unlink s' t else s').
Proof.
  intros Ht Hn Hr. unfold rename_w, rename. destruct w, (names s Out); try exact Hr.
  destruct Hr as [Hnames Hdata Hnext Hout]. constructor; cbn [unlink bind_name names data next_ino]; auto.
  - intros p Hp. rewrite (path_eqb_neq p Out Hp). destruct (path_eqb p t) eqn:E; [|auto].
    apply path_eqb_eq in E. congruence.
  - left. rewrite (path_eqb_neq Out t) by congruence. reflexivity.
Qed.

Lemma rel_unlink_w s0 s w : rel s0 s -> rel s0 (unlink_w w s Out).
Proof. destruct w; [apply rel_unlink_out|auto]. Qed.

Lemma rel_fill s0 s b : rel s0 s -> rel s0 (fill s b).
Proof. intros Hr. unfold fill. destruct (names s Out) eqn:E; auto using rel_set_out_data. Qed.

Theorem link_rel c s0 : tmp c <> Out -> names s0 (tmp c) = None -> rel s0 (fst (link c s0)).
Proof.
  intros Ht Hn. apply link_inv with (J := rel s0).
  - apply rel_refl.
  - (* set_size: a background thread creates the output here, after parking the old name if the mode says so *)
    unfold on_set_size. intros s1. destruct (background c); [|intros [= <-]; apply rel_refl].
    apply rel_create_output. destruct (mode_of c s0); auto using rel_refl, rel_park.
  - (* the start of the write: the main thread unlinks the name and creates the output *)
    unfold on_write_start. intros s1 s2 _ H1. destruct (background c); [intros [= <-]; exact H1|].
    apply rel_create_output, rel_unlink_w, H1.
  - intros s b. apply rel_fill.
  - intros s H. exact H.
  - intros s. apply rel_unlink_w.
Qed.
