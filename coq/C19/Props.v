(* C19 — a link touches only its declared outputs: the property theorems (file operations of the output path;
   the user-requested side files — dependency file, layout, trace, save-dir — are declared outputs and are checked
   only by the directory snapshots of the correspondence check). Model: Cfs/Model.v. *)
From Coq Require Import NArith List.
From WV Require Import Cfs.Model C18.Proofs C19.Proofs.
Open Scope N_scope.

(* For every configuration, failure point (error return or kill) and prior directory contents in which the parking
   name chosen by unused_sibling_path is indeed unused: every name other than the output's is bound exactly as
   before — in particular nothing is left behind under the parking name ... *)
Theorem C19_other_names_unchanged :
  forall c s0, wf (tmp c) s0 -> forall p, p <> Out -> names (fst (link c s0)) p = names s0 p.
Proof. intros c s0 (Ht & Hn & _). exact (r_names _ _ (link_rel c s0 Ht Hn)). Qed.
Print Assumptions C19_other_names_unchanged.

(* ... and every inode that existed before, other than the one the output name was bound to, keeps its contents *)
Theorem C19_other_files_keep_contents :
  forall c s0, wf (tmp c) s0 ->
    forall i, i < next_ino s0 -> names s0 Out <> Some i -> data (fst (link c s0)) i = data s0 i.
Proof. intros c s0 (Ht & Hn & _). exact (r_data _ _ (link_rel c s0 Ht Hn)). Qed.
Print Assumptions C19_other_files_keep_contents.

(* why the parking name has to be unused (the defect repaired in /repo: it was always <stem>.delete) *)
Theorem C19_refuted_if_parking_name_exists :
  let s0 := {| names := fun p => match p with Out => Some 7 | Other 0 => Some 9 | _ => None end; data := fun _ => Old 1; next_ino := 100 |} in
  names s0 (Other 0) = Some 9 /\ names (fst (link (cfg_of true None true false Success false) s0)) (Other 0) = None.
Proof. vm_compute. split; reflexivity. Qed.
Print Assumptions C19_refuted_if_parking_name_exists.

(* NOT covered: another NAME for the old output's inode (a hard link).  With the default in-place update of an
   existing executable the inode is rewritten, so the other name shows the new bytes: known_findings.json
   C19-hardlink-updated-in-place *)
Theorem C19_refuted_for_hard_links :
  let s0 := {| names := fun p => match p with Out => Some 7 | Other 5 => Some 7 | _ => None end; data := fun _ => Old 1; next_ino := 100 |} in
  let s1 := fst (link (cfg_of false None true false Success false) s0) in
  names s1 (Other 5) = Some 7 /\ data s0 7 = Old 1 /\ data s1 7 = Fresh true.
Proof. vm_compute. repeat split; reflexivity. Qed.
Print Assumptions C19_refuted_for_hard_links.

Example C19_hypotheses_satisfiable : wf (tmp (cfg_of true None true false Success false)) (fs0 true).
Proof. repeat split; try discriminate. intros i H. injection H as <-. reflexivity. Qed.
