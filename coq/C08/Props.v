From Coq Require Import NArith List Bool Lia.
From WV Require Import C08.Model C08.Proofs.
Open Scope N_scope.

(* GNU hash: for every list of definitions (any number, any names, any hash values) that is sorted by bucket — the order
   create_gnu_hash_layout establishes — with symbol_base >= 1, glibc's lookup of the i-th definition's (name, hash) through
   the tables write_gnu_hash_tables emits (bloom filter, bucket, chain walk) returns an entry whose name is equal. *)
Theorem C08_gnu_lookup_finds :
  forall (name : Type) (name_eqb : name -> name -> bool), (forall n, name_eqb n n = true) ->
  forall nb symbase, 0 < symbase -> 0 < nb ->
  forall ds : list (name * N), bsorted nb (map snd ds) ->
  forall i nm h, nth_error ds i = Some (nm, h) ->
  exists j n', gnu_lookup name name_eqb nb symbase (build_gnu name nb symbase ds) (map fst ds) h nm = Some (N.of_nat j)
               /\ (j <= i)%nat /\ nth_error (map fst ds) j = Some n' /\ name_eqb n' nm = true.
Proof. intros name name_eqb Hr nb symbase Hs Hn ds. exact (gnu_lookup_finds name name_eqb Hr nb symbase Hs ds Hn). Qed.

(* no lookup returns a symbol with a different name *)
Theorem C08_gnu_walk_only_same_name :
  forall (name : Type) (name_eqb : name -> name -> bool) rest idx h nm j,
  walk name name_eqb rest idx h nm = Some j ->
  exists k c n, nth_error rest k = Some (c, n) /\ j = idx + N.of_nat k /\ name_eqb n nm = true.
Proof.
  intros name name_eqb. induction rest as [|[c n] t IH]; intros idx h nm j H; [discriminate|]. cbn [walk] in H.
  destruct ((N.shiftr (N.lxor c h) 1 =? 0) && name_eqb n nm) eqn:E.
  - injection H as <-. apply andb_prop in E. exists 0%nat, c, n. split; [reflexivity|]. split; [lia|apply E].
  - destruct (N.testbit c 0); [discriminate|].
    destruct (IH _ _ _ _ H) as (k & c' & n' & Hk & Hj & Hn).
    exists (S k), c', n'. split; [assumption|]. split; [lia|assumption].
Qed.

Print Assumptions C08_gnu_lookup_finds.
Print Assumptions C08_gnu_walk_only_same_name.
