From Coq Require Import NArith List Bool Lia Sorting.Sorted.
From WV Require Import C08.Model.
Import ListNotations.
Open Scope N_scope.

Section Proofs.
  Variable name : Type.
  Variable name_eqb : name -> name -> bool.
  Hypothesis name_eqb_refl : forall n, name_eqb n n = true.
  Variable nb symbase : N.

  Notation bucket := (bucket nb).
  Notation chains_of := (chains_of nb).
  Notation buckets_loop := (buckets_loop nb symbase).
  Notation buckets_of := (buckets_of nb symbase).
  Notation walk := (walk name name_eqb).

  Lemma bloom_bit hs k : forall w,
    N.testbit w k = true \/ (exists h, In h hs /\ N.testbit (bloom_bits h) k = true) ->
    N.testbit (fold_left (fun w h => N.lor w (bloom_bits h)) hs w) k = true.
  Proof.
    induction hs as [|h0 t IH]; intros w H; cbn [fold_left].
    - destruct H as [H|(h & [] & _)]. exact H.
    - apply IH. rewrite N.lor_spec. destruct H as [->|(h & [->|Hin] & Hb)].
      + left. reflexivity.
      + left. rewrite Hb. apply orb_true_r.
      + right. exists h. split; assumption.
  Qed.

  Lemma bloom_in hs h : In h hs ->
    N.testbit (bloom_word hs) (h mod 64) = true /\ N.testbit (bloom_word hs) ((N.shiftr h 6) mod 64) = true.
  Proof.
    intros Hin. split; apply bloom_bit; right; exists h; (split; [exact Hin|]);
      unfold bloom_bits; rewrite N.lor_spec, !N.shiftl_1_l, N.pow2_bits_true; [reflexivity|apply orb_true_r].
  Qed.

  Fixpoint first_ix (hs : list N) (i b : N) : option N :=
    match hs with
    | [] => None
    | h :: t => if bucket h =? b then Some i else first_ix t (i + 1) b
    end.

  Definition bsorted (hs : list N) : Prop := StronglySorted N.le (map bucket hs).

  Lemma bsorted_inv h t : bsorted (h :: t) -> bsorted t /\ forall x, In x t -> bucket h <= bucket x.
  Proof.
    intros Hs. inversion Hs as [|? ? Ht Hall]. split; [exact Ht|].
    intros x Hx. rewrite Forall_forall in Hall. apply Hall, in_map, Hx.
  Qed.

  Lemma first_ix_none l b : forall i, (forall x, In x l -> b < bucket x) -> first_ix l i b = None.
  Proof.
    induction l as [|h t IH]; intros i H; [reflexivity|]. cbn [first_ix].
    destruct (N.eqb_spec (bucket h) b) as [E|E].
    - specialize (H h (or_introl eq_refl)). lia.
    - apply IH. intros x Hx. apply H. right. assumption.
  Qed.

  Lemma loop_start h t bk i :
    buckets_loop (h :: t) bk true i = buckets_loop (h :: t) (upd bk (bucket h) (i + symbase)) false i.
  Proof. reflexivity. Qed.

  Lemma loop_next h h' t bk i :
    buckets_loop (h :: h' :: t) bk false i = buckets_loop (h' :: t) bk (negb (bucket h' =? bucket h)) (i + 1).
  Proof. reflexivity. Qed.

  Lemma loop_spec t : forall h bk i b, bsorted (h :: t) ->
    buckets_loop (h :: t) bk false i b =
    if bucket h =? b then bk b
    else match first_ix t (i + 1) b with Some k => k + symbase | None => bk b end.
  Proof.
    induction t as [|h' t IH]; intros h bk i b Hs.
    - cbn. destruct (bucket h =? b); reflexivity.
    - destruct (bsorted_inv _ _ Hs) as [Hs' Hle]. rewrite loop_next. cbn [first_ix]. destruct (N.eqb_spec (bucket h') (bucket h)) as [E|E]; cbn [negb].
      + rewrite (IH _ _ _ _ Hs'), E. destruct (bucket h =? b); reflexivity.
      + (* h' starts a run: its bucket is written *)
        rewrite loop_start, (IH _ _ _ _ Hs'). unfold upd. rewrite (N.eqb_sym b).
        destruct (N.eqb_spec (bucket h') b) as [E'|E'].
        * destruct (N.eqb_spec (bucket h) b); [congruence|reflexivity].
        * destruct (N.eqb_spec (bucket h) b) as [Eb|_]; [|reflexivity].
          (* the run of h has ended: nothing further falls into its bucket *)
          rewrite first_ix_none; [reflexivity|]. destruct (bsorted_inv _ _ Hs') as [_ Hle'].
          intros x Hx. specialize (Hle h' (or_introl eq_refl)). specialize (Hle' x Hx). lia.
  Qed.

  Lemma buckets_of_spec hs b : bsorted hs ->
    buckets_of hs b = match first_ix hs 0 b with Some k => k + symbase | None => 0 end.
  Proof.
    intros Hs. destruct hs as [|h t]; [reflexivity|]. unfold Model.buckets_of.
    rewrite loop_start, (loop_spec _ _ _ _ _ Hs). cbn [first_ix]. unfold upd. rewrite (N.eqb_sym b).
    destruct (bucket h =? b); reflexivity.
  Qed.

  Lemma chain_word_match h (s : bool) : N.shiftr (N.lxor (N.lor (clear0 h) (if s then 1 else 0)) h) 1 = 0.
  Proof.
    apply N.bits_inj. intros i. rewrite N.shiftr_spec', N.bits_0, N.lxor_spec, N.lor_spec.
    unfold clear0. rewrite N.ldiff_spec.
    assert (H1 : N.testbit 1 (i + 1) = false).
    { change 1 with (2 ^ 0). apply N.pow2_bits_false. lia. }
    assert (Hs : N.testbit (if s then 1 else 0) (i + 1) = false) by (destruct s; [exact H1|apply N.bits_0]).
    rewrite H1, Hs. cbn [negb]. rewrite andb_true_r, orb_false_r. apply xorb_nilpotent.
  Qed.

  Lemma chain_word_stop h (s : bool) : N.testbit (N.lor (clear0 h) (if s then 1 else 0)) 0 = s.
  Proof.
    rewrite N.lor_spec. unfold clear0. rewrite N.ldiff_spec.
    change (N.testbit 1 0) with true. cbn [negb]. rewrite andb_false_r. destruct s; reflexivity.
  Qed.

  Section Walk.
    Variables (h : N) (nm : name).

    (* started on an entry of h's bucket, the walk cannot stop before the k-th entry, which matches:
       sortedness squeezes every bucket in between *)
    Lemma walk_finds : forall k a t ns idx,
      bsorted (a :: t) -> bucket a = bucket h ->
      nth_error (a :: t) k = Some h -> nth_error ns k = Some nm ->
      exists j n', walk (combine (chains_of (a :: t)) ns) idx h nm = Some (idx + N.of_nat j) /\ (j <= k)%nat /\
                   nth_error ns j = Some n' /\ name_eqb n' nm = true.
    Proof.
      induction k as [|k IH]; intros a t [|n0 ns] idx Hs Hb Hh Hn; try discriminate;
        cbn [nth_error] in Hh, Hn; cbn [Model.chains_of combine Model.walk].
      - injection Hh as ->. injection Hn as ->. rewrite chain_word_match, N.eqb_refl, name_eqb_refl. cbn [andb].
        exists 0%nat, nm. rewrite N.add_0_r. auto.
      - (* walk's test on the entry at idx: its hash is h up to bit 0, and its name is nm *)
        destruct ((N.shiftr _ 1 =? 0) && name_eqb n0 nm) eqn:Em.
        + apply andb_prop in Em. exists 0%nat, n0. rewrite N.add_0_r. repeat split; [lia|apply Em].
        + destruct (bsorted_inv _ _ Hs) as [Hs' Hle]. destruct t as [|h1 t']; [destruct k; discriminate|].
          assert (Hb' : bucket h1 = bucket h).
          { specialize (Hle h1 (or_introl eq_refl)). destruct (nth_error_In _ _ Hh) as [->|Hin]; [reflexivity|].
            destruct (bsorted_inv _ _ Hs') as [_ Hle']. specialize (Hle' h Hin). lia. }
          rewrite chain_word_stop, Hb', <- Hb, N.eqb_refl. cbn [negb].
          destruct (IH h1 t' ns (idx + 1) Hs' Hb' Hh Hn) as (j & n' & Hw & Hj & Hnj & Hnn).
          exists (S j), n'. rewrite Hw. repeat split; [f_equal|..]; auto; lia.
    Qed.

    Lemma walk_from_first hs : forall ns i off,
      bsorted hs -> nth_error hs i = Some h -> nth_error ns i = Some nm ->
      exists s j n', first_ix hs off (bucket h) = Some (off + N.of_nat s) /\
        walk (skipn s (combine (chains_of hs) ns)) (off + N.of_nat s) h nm = Some (off + N.of_nat j) /\
        (j <= i)%nat /\ nth_error ns j = Some n' /\ name_eqb n' nm = true.
    Proof.
      induction hs as [|h0 t IH]; intros ns i off Hs Hh Hn; [destruct i; discriminate|]. cbn [first_ix].
      destruct (N.eqb_spec (bucket h0) (bucket h)) as [E|E].
      - destruct (walk_finds i h0 t ns off Hs E Hh Hn) as (j & n' & Hw & H).
        exists 0%nat, j, n'. rewrite N.add_0_r. auto.
      - destruct i as [|i]; [injection Hh as ->; contradiction|]. destruct ns as [|n0 ns]; [discriminate|].
        destruct (IH ns i (off + 1) (proj1 (bsorted_inv _ _ Hs)) Hh Hn) as (s & j & n' & -> & Hw & Hj & H).
        exists (S s), (S j), n'. cbn [skipn Model.chains_of combine].
        replace (off + N.of_nat (S s)) with (off + 1 + N.of_nat s) by lia. rewrite Hw.
        repeat split; [f_equal; lia|lia|apply H..].
    Qed.
  End Walk.

  Hypothesis symbase_pos : 0 < symbase.

  Theorem gnu_lookup_finds (ds : list (name * N)) :
    0 < nb -> bsorted (map snd ds) ->
    forall i nm h, nth_error ds i = Some (nm, h) ->
    exists j n', gnu_lookup name name_eqb nb symbase (build_gnu name nb symbase ds) (map fst ds) h nm = Some (N.of_nat j)
                 /\ (j <= i)%nat /\ nth_error (map fst ds) j = Some n' /\ name_eqb n' nm = true.
  Proof using name_eqb_refl symbase_pos.
    intros _ Hs i nm h Hi.
    pose proof (map_nth_error snd i ds Hi) as Hh. pose proof (map_nth_error fst i ds Hi) as Hn. cbn [fst snd] in Hh, Hn.
    unfold gnu_lookup, build_gnu. cbn [g_bloom g_buckets g_chains].
    destruct (bloom_in _ h (nth_error_In _ _ Hh)) as [B1 B2]. rewrite B1, B2. cbn [andb].
    rewrite (buckets_of_spec _ _ Hs).
    destruct (walk_from_first h nm _ _ i 0 Hs Hh Hn) as (s & j & n' & -> & Hw & H). rewrite !N.add_0_l in Hw |- *.
    replace (N.of_nat s + symbase =? 0) with false by (symmetry; apply N.eqb_neq; lia).
    replace (N.of_nat s + symbase - symbase) with (N.of_nat s) by lia. rewrite Nat2N.id, Hw.
    exists j, n'. auto.
  Qed.
End Proofs.
