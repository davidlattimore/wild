(* C31 — symbol tables describe the final resolution. *)
From Coq Require Import List Btauto.
From WV Require Import C31.Model C31.Proofs.

(* for every symbol and every output configuration wild's dynamic symbol table exports and imports exactly what the GNU
   rule says *)
Theorem C31_dynsym_is_exactly_what_must_be_dynamic :
  forall c s, wild_exported c s = gnu_exported c s /\ wild_imported c s = gnu_imported c s.
Proof. exact exported_agree. Qed.
Print Assumptions C31_dynsym_is_exactly_what_must_be_dynamic.

(* hidden, internal, --exclude-libs, version-script local, local-binding, undefined and garbage-collected symbols are
   never exported, whatever else is asked for *)
Theorem C31_demoted_symbols_are_never_exported :
  forall c s,
    (svis s = Hidden \/ svis s = Internal \/ excluded_lib s = true \/ vs_local s = true \/ sbind s = Local \/ defined s = false \/ retained s = false) ->
    wild_exported c s = false.
Proof.
  intros c s H. rewrite (proj1 (exported_agree c s)). unfold gnu_exported.
  destruct H as [H|[H|[H|[H|[H|[H|H]]]]]]; rewrite H; cbn [exportable_vis]; btauto.
Qed.
Print Assumptions C31_demoted_symbols_are_never_exported.

(* .symtab: the locals come first and sh_info is the index of the first non-local *)
Theorem C31_symtab_locals_before_globals :
  forall locals globals,
    let t := symtab locals globals in
    length t = length locals + length globals /\
    (forall i e, nth_error t i = Some e -> (e_local e = true <-> i < sh_info locals globals)) /\
    map e_name t = locals ++ globals.
Proof. exact symtab_locals_first. Qed.
Print Assumptions C31_symtab_locals_before_globals.

Example C31_example :
  let s := {| defined := true; sbind := Weak; svis := Protected; retained := true; vs_local := false; excluded_lib := false; in_export_list := false; dso_ref := true; dso_def := true; referenced := true |} in
  wild_exported {| shared := false; export_dynamic := false |} s = true /\ wild_exported {| shared := false; export_dynamic := false |} {| defined := true; sbind := Weak; svis := Protected; retained := true; vs_local := false; excluded_lib := true; in_export_list := true; dso_ref := true; dso_def := true; referenced := true |} = false.
Proof. split; reflexivity. Qed.
