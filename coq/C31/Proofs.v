From Coq Require Import List Bool Arith Lia Btauto.
From WV Require Import C31.Model.

(* Both export rules are boolean formulas over the flags of the symbol and of the configuration; only the
   visibility and the binding have more than two values. *)
Lemma exported_agree c s : wild_exported c s = gnu_exported c s /\ wild_imported c s = gnu_imported c s.
Proof.
  split; [|reflexivity].
  unfold wild_exported, gnu_exported, can_export, downgraded_to_local.
  destruct (svis s), (sbind s); cbn [exportable_vis]; btauto.
Qed.

Lemma agree_all c s : agree c s = true.
Proof. unfold agree. destruct (exported_agree c s) as [-> ->]. rewrite !eqb_reflx. reflexivity. Qed.

Lemma symtab_locals_first locals globals :
  let t := symtab locals globals in
  length t = length locals + length globals /\
  (forall i e, nth_error t i = Some e -> (e_local e = true <-> i < sh_info locals globals)) /\
  map e_name t = locals ++ globals.
Proof.
  unfold symtab, sh_info. split; [rewrite app_length, !map_length; reflexivity|]. split.
  - intros i e H. destruct (lt_dec i (length locals)) as [Hl|Hl].
    + rewrite nth_error_app1 in H by (rewrite map_length; exact Hl). apply nth_error_In, in_map_iff in H. destruct H as (n & <- & _). tauto.
    + rewrite nth_error_app2 in H by (rewrite map_length; lia). apply nth_error_In, in_map_iff in H. destruct H as (n & <- & _). split; [discriminate|lia].
  - rewrite map_app, !map_map. rewrite !map_id. reflexivity.
Qed.
