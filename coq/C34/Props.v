(* C34 — linker-diff is quiet on equal binaries and catches broken relocations: the property theorems. *)
From Coq Require Import ZArith List Bool Lia.
From WV Require Import C34.Model.
Import ListNotations.
Open Scope Z_scope.

(* two layouts in which every reference keeps its position relative to its symbol: nothing is reported *)
Theorem C34_quiet_when_every_reference_agrees :
  forall r t sites, (forall s, In s sites -> relative r s = relative t s) -> report r t sites = [].
Proof.
  intros r t. unfold report. induction sites as [|s l IH]; intros H; cbn [filter]; [reflexivity|].
  rewrite (H s (or_introl eq_refl)), Z.eqb_refl. apply IH. intros x Hx. apply H. right; exact Hx.
Qed.
Print Assumptions C34_quiet_when_every_reference_agrees.

(* in particular a binary against itself (or a byte-identical copy: the same function of the bytes) *)
Theorem C34_quiet_on_identical_binaries : forall b sites, report b b sites = [].
Proof. intros b sites. apply C34_quiet_when_every_reference_agrees. reflexivity. Qed.
Print Assumptions C34_quiet_on_identical_binaries.

(* one reference redirected to any other address: reported, and only the sites of that reference are *)
Theorem C34_a_redirected_reference_is_reported :
  forall b sites v t to,
    In (v, t) sites -> to <> points_at b v ->
    forall s, In s (report b (redirect b v to) sites) <-> In s sites /\ fst s = v.
Proof.
  intros b sites v t to _ Hne s. unfold report. rewrite filter_In. unfold relative, redirect. cbn [sym_addr points_at]. split.
  - intros (Hs & Hd). split; [exact Hs|]. destruct (Nat.eqb_spec (fst s) v) as [E|E]; [exact E|].
    rewrite Z.eqb_refl in Hd. discriminate.
  - intros (Hs & ->). split; [exact Hs|]. rewrite Nat.eqb_refl. apply negb_true_iff, Z.eqb_neq. lia.
Qed.
Print Assumptions C34_a_redirected_reference_is_reported.
