(* C28 — optional transformations don't change program behaviour: the property theorems.  They are corollaries of the
   models of C09, C14, C07 and C08. *)
From Coq Require Import NArith List.
From WV Require Import C09.Model C09.Proofs C28.Model C28.Proofs.
From WV Require C14.Props C07.Props C08.Props.
Open Scope N_scope.

(* -z pack-relative-relocs: the loaded process image is the same at every address, at every load base *)
Theorem C28_packed_relative_relocations_are_invisible :
  forall m0 sites base x, NoDup (map s_place sites) -> loaded true base m0 sites x = loaded false base m0 sites x.
Proof.
  intros m0 sites base x Hn. unfold loaded.
  destruct (image_shift true m0 sites base Hn) as (A1 & B1). destruct (image_shift false m0 sites base Hn) as (A2 & B2).
  destruct (in_dec N.eq_dec x (map s_place sites)) as [Hin|Hnin].
  - apply in_map_iff in Hin. destruct Hin as (s & <- & Hs). rewrite (A1 s Hs), (A2 s Hs). reflexivity.
  - rewrite (B1 x Hnin), (B2 x Hnin). reflexivity.
Qed.
Print Assumptions C28_packed_relative_relocations_are_invisible.

(* static vs static-PIE vs PIE: the position-independent image is the static image with every address word moved by the
   load base and everything else untouched (with or without RELR) *)
Theorem C28_position_independent_image_is_the_static_one_shifted :
  forall m0 sites relr base, NoDup (map s_place sites) ->
    (forall s, In s sites -> loaded relr base m0 sites (s_place s) = static_image m0 sites (s_place s) + base) /\
    (forall x, ~ In x (map s_place sites) -> loaded relr base m0 sites x = static_image m0 sites x).
Proof.
  intros m0 sites relr base Hn. unfold loaded.
  destruct (image_shift relr m0 sites base Hn) as (A & B). destruct (static_image_spec sites m0 Hn) as (C & D). split.
  - intros s Hs. rewrite (A s Hs), (C s Hs). reflexivity.
  - intros x Hx. rewrite (B x Hx), (D x Hx). reflexivity.
Qed.
Print Assumptions C28_position_independent_image_is_the_static_one_shifted.

(* --relax / --no-relax: a relaxed instruction has the effect of the original one (C14) *)
Definition C28_relaxation_preserves_the_instruction := C14.Props.C14_got_relax_preserves_semantics.
Check C28_relaxation_preserves_the_instruction.
Print Assumptions C28_relaxation_preserves_the_instruction.

(* string merging: every reference into a merged section still reads the bytes it read before (C07) *)
Definition C28_string_merging_preserves_what_references_read := C07.Props.C07_merged_bytes_preserved.
Check C28_string_merging_preserves_what_references_read.
Print Assumptions C28_string_merging_preserves_what_references_read.

(* --hash-style: the GNU table finds every exported definition under glibc's lookup (C08); the SysV table is tied by runs *)
Definition C28_gnu_hash_lookup_finds_every_definition := C08.Props.C08_gnu_lookup_finds.
Check C28_gnu_hash_lookup_finds_every_definition.
Print Assumptions C28_gnu_hash_lookup_finds_every_definition.
