From Coq Require Import NArith List.
From WV Require Import C09.Model C09.Proofs C28.Model.
Open Scope N_scope.

Lemma static_image_spec : forall sites m0, NoDup (map s_place sites) ->
  (forall s, In s sites -> static_image m0 sites (s_place s) = s_target s) /\
  (forall x, ~ In x (map s_place sites) -> static_image m0 sites x = m0 x).
Proof.
  unfold static_image. induction sites as [|s r IH]; intros m0 Hn; cbn [fold_left].
  - split; [intros s []|reflexivity].
  - inversion Hn as [|? ? Hs Hr]; subst. destruct (IH (upd m0 (s_place s) (s_target s)) Hr) as (A & B). split.
    + intros t [->|Ht]; [|apply A; exact Ht]. rewrite (B (s_place t) Hs). apply upd_same.
    + intros x Hx. rewrite B by (intros H; apply Hx; right; exact H).
      apply upd_other. intros ->. apply Hx. left. reflexivity.
Qed.
