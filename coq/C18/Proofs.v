From Coq Require Import NArith.
From WV Require Import Cfs.Model Cfs.Proofs.
Open Scope N_scope.

Definition prior_ok (s : fs) : Prop :=
  forall i, names s Out = Some i -> exists c, data s i = Old c.

Lemma create_output_names c m s s' : create_output c m s = Some s' -> exists i, names s' Out = Some i.
Proof.
  intros H. destruct (create_output_cases c m s s' H) as [(s1 & x & _ & ->)|(i & x & E & ->)].
  - exists (next_ino s1). reflexivity.
  - exists i. exact E.
Qed.

(* the states and configurations of the examples (C19 and C21 use them too) *)
Definition fs0 (present : bool) : fs :=
  {| names := fun p => match p with Out => if present then Some 7 else None | _ => None end;
     data := fun _ => Old 1; next_ino := 100 |}.
Definition cfg_of (sh : bool) (fo : option wmode) (bg bu : bool) (st : stop) (cr : bool) : cfg :=
  {| shared := sh; forced := fo; background := bg; busy := bu; tmp := Other 0; dir_writable := true; stop_at := st; crash := cr |}.
Definition cfg_ro (sh : bool) (fo : option wmode) (bg bu : bool) (st : stop) (cr : bool) : cfg :=
  {| shared := sh; forced := fo; background := bg; busy := bu; tmp := Other 0; dir_writable := false; stop_at := st; crash := cr |}.
