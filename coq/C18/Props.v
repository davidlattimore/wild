(* C18 — a failed link leaves no output file produced by that link: the property theorems.
   Model: Cfs/Model.v (abstract file system + the file operations of one link, all write modes, background and
   main-thread creation, ETXTBSY fallback, the failure points before set_size / after set_size / in the write
   phase / after it, and remove_after_failed_link). *)
From Coq Require Import NArith List.
From WV Require Import Cfs.Model Cfs.Proofs C18.Proofs.
Open Scope N_scope.

(* Every configuration (shared or executable, forced or default write mode, one or many threads, old output
   being executed or not, any name for the parked old output) in a directory wild may modify, every prior state of the output path and every failure point at which wild RETURNS an
   error: afterwards the output path is absent, or still bound to the old inode with its old contents. *)
Theorem C18_failed_link_leaves_no_output :
  forall c s0, prior_ok s0 -> crash c = false -> dir_writable c = true -> snd (link c s0) = false ->
    observe s0 (fst (link c s0)) = Absent \/ observe s0 (fst (link c s0)) = Untouched.
Proof.
  intros c s0 Hp Hc Hw Hf. destruct (link_failure c s0 Hc Hf) as [->|[s ->]].
  - unfold observe. destruct (names s0 Out) as [i|] eqn:E; [right|left; reflexivity].
    rewrite N.eqb_refl. destruct (Hp i E) as [x ->]. reflexivity.
  - left. rewrite Hw. reflexivity.
Qed.
Print Assumptions C18_failed_link_leaves_no_output.

(* the other direction, so that the statement above is not met by never writing anything *)
Theorem C18_successful_link_writes_complete_file :
  forall c s0, snd (link c s0) = true ->
    exists i, names (fst (link c s0)) Out = Some i /\ data (fst (link c s0)) i = Fresh true.
Proof.
  intros c s0 H. destruct (link_success c s0 H) as (s1 & s2 & E1 & E2 & ->).
  (* the file was created by whichever of the two phases does it for this thread count *)
  assert (exists i, names s2 Out = Some i) as [i Hi].
  { unfold on_write_start, on_set_size in *.
    destruct (background c); [injection E2 as <-|]; eapply create_output_names; eassumption. }
  exists i. unfold fill. rewrite Hi. cbn [set_data names data]. rewrite N.eqb_refl. auto.
Qed.
Print Assumptions C18_successful_link_writes_complete_file.

(* NOT covered: the linking process being killed (panic, abort, SIGKILL) once the file exists — nobody is left to
   clean up; known_findings.json C18-killed-after-creation *)
Theorem C18_refuted_when_killed :
  observe (fs0 true) (fst (link (cfg_of false None true false InWrite true) (fs0 true))) = Changed (Fresh false) /\
  observe (fs0 false) (fst (link (cfg_of false None true false AfterSetSize true) (fs0 false))) = Changed (Fresh false).
Proof. vm_compute. split; reflexivity. Qed.
Print Assumptions C18_refuted_when_killed.

(* NOT covered either: a directory in which wild may not remove names, holding a writable old output — the old inode
   is reopened with O_TRUNC and cannot be removed afterwards; known_findings.json C18-unwritable-directory *)
Theorem C18_refuted_in_unwritable_directory :
  observe (fs0 true) (fst (link (cfg_ro true None true false InWrite false) (fs0 true))) = Changed (Fresh false).
Proof. vm_compute. reflexivity. Qed.
Print Assumptions C18_refuted_in_unwritable_directory.

Example C18_hypotheses_satisfiable :
  prior_ok (fs0 true) /\ snd (link (cfg_of true None true false InWrite false) (fs0 true)) = false /\
  observe (fs0 true) (fst (link (cfg_of true None true false InWrite false) (fs0 true))) = Absent /\
  observe (fs0 true) (fst (link (cfg_of false None false false Early false) (fs0 true))) = Untouched.
Proof. split; [intros i H; exists 1; reflexivity|vm_compute; repeat split; reflexivity]. Qed.
