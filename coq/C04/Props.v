From Coq Require Import ZArith List Lia.
From WV Require Import C04.Model C04.Proofs.
Import ListNotations.
Open Scope Z_scope.

(* One LOAD segment.  ds: the parts with bytes in the file; ns: the trailing NOBITS parts; (f, m) the running file
   offset and address when the segment begins.  The segment's p_offset is f, its p_vaddr is congruent to it modulo
   p_align (= the largest alignment in the segment, a multiple of the page size), every part's address honours its
   alignment and the alignment divides p_align, every part with file contents sits at the same distance from the
   segment start in the file and in memory (so the loader maps it to its address), and consecutive parts do not overlap. *)
Theorem C04_load_segment_well_formed :
  forall page ds ns f m,
    is_pow2 page -> Forall wf_part (ds ++ ns) -> all_data ds ->
    let A := seg_alignment page (ds ++ ns) in
    let '(off, vaddr, pl, _) := layout_segment page f m (ds ++ ns) in
    off = f /\ (A | vaddr - off) /\ m <= vaddr /\ vaddr < m + 2 * A /\ (page | A) /\
    map l_part pl = ds ++ ns /\
    Forall (fun x => (pa (l_part x) | l_mem x) /\ (pa (l_part x) | A) /\ vaddr <= l_mem x) pl /\
    Forall (fun x => l_mem x - vaddr = l_file x - off /\ (pa (l_part x) | l_file x) /\ off <= l_file x) (firstn (length ds) pl) /\
    ordered pl.
Proof.
  intros page ds ns f m Hpage Hwf Hd. rewrite layout_segment_eq. cbn zeta.
  destruct (seg_alignment_spec page (ds ++ ns) Hpage Hwf) as (HA & HpA & Hdiv). apply pow2_pos in HA.
  apply wf_weaken in Hwf. set (A := seg_alignment page (ds ++ ns)) in *.
  pose proof (align_mod_congruent A f m HA) as Hcong. pose proof (align_mod_bounds A f m HA) as Hb.
  set (m0 := align_mod A f m) in *.
  pose proof (layout_parts_parts (ds ++ ns) f m0) as Hparts. pose proof (layout_parts_chain _ f m0 Hwf) as Hch.
  split; [reflexivity|]. split; [exact Hcong|]. split; [lia|]. split; [lia|]. split; [exact HpA|]. split; [exact Hparts|].
  split; [|split; [|exact (chain_ordered _ _ _ Hch)]].
  - rewrite <- Hparts, Forall_map in Hdiv. apply chain_lower in Hch.
    eapply Forall_impl; [|exact (Forall_and (layout_parts_aligned _ f m0) (Forall_and Hdiv Hch))].
    intros x ((_ & Hamem) & HdA & _ & Hlo). exact (conj Hamem (conj HdA Hlo)).
  - (* the parts of ds are laid out as if ns were not there *)
    rewrite layout_parts_firstn. apply Forall_app in Hwf, Hdiv. destruct Hwf as [Hwf _], Hdiv as [Hdiv _].
    pose proof (layout_parts_data A (m0 - f) Hcong ds f m0 eq_refl Hdiv Hd) as Hsame.
    pose proof (chain_lower _ _ _ (layout_parts_chain ds f m0 Hwf)) as Hlow.
    eapply Forall_impl; [|exact (Forall_and Hsame (Forall_and (layout_parts_aligned ds f m0) Hlow))].
    intros x (Hdist & (Hafile & _) & Hlo & _). repeat split; [lia|exact Hafile|exact Hlo].
Qed.
Print Assumptions C04_load_segment_well_formed.

(* The whole allocated image: no two parts overlap, in the file or in memory, whichever segments they are in. *)
Theorem C04_parts_never_overlap :
  forall page segs f m,
    is_pow2 page -> Forall (Forall wf_part) segs ->
    ForallOrdPairs disjoint_pair (image_parts (layout_image page f m segs)).
Proof.
  intros page segs f m Hp Hw. apply chain_pairwise with f m, layout_image_chain; [exact (pow2_pos _ Hp)|].
  exact (Forall_impl _ wf_weaken Hw).
Qed.
Print Assumptions C04_parts_never_overlap.

(* A loader may add any bias that is a multiple of p_align (position-independent outputs): alignment survives. *)
Theorem C04_alignment_survives_the_load_bias :
  forall a A addr bias, (a | A) -> (a | addr) -> (A | bias) -> (a | addr + bias).
Proof. intros a A addr bias H1 H2 H3. apply Z.divide_add_r; [exact H2|exact (Z.divide_trans _ _ _ H1 H3)]. Qed.
Print Assumptions C04_alignment_survives_the_load_bias.

(* p_align must take NOBITS parts into account: computed from the parts with file contents only, a permitted bias
   leaves a .bss-like part misaligned. *)
Theorem C04_refuted_if_nobits_ignored_in_p_align :
  exists page ps bias,
    is_pow2 page /\ Forall wf_part ps /\ (seg_alignment_data_only page ps | bias) /\
    exists x, In x (fst (layout_parts 0 0 ps)) /\ ~ (pa (l_part x) | l_mem x + bias).
Proof.
  exists 4096, [ {| pa := 8; psize := 8; pdata := true |}; {| pa := 65536; psize := 100; pdata := false |} ], 4096.
  split; [exists 12; split; [lia|reflexivity]|]. split.
  - constructor; [|constructor; [|constructor]].
    + split; [exists 3; split; [lia|reflexivity]|cbn; lia].
    + split; [exists 16; split; [lia|reflexivity]|cbn; lia].
  - split; [vm_compute; exists 1; reflexivity|].
    eexists. split; [right; left; reflexivity|]. intros H. apply Z.mod_divide in H; [vm_compute in H; discriminate|vm_compute; discriminate].
Qed.
Print Assumptions C04_refuted_if_nobits_ignored_in_p_align.

(* the premises are satisfiable: a text-like segment starting at a file offset that is not page aligned *)
Example C04_example :
  layout_segment 4096 0x4c0 0x4004c0
     [ {| pa := 16; psize := 39; pdata := true |}; {| pa := 8; psize := 8; pdata := true |}; {| pa := 64; psize := 100; pdata := false |} ]
  = (0x4c0, 0x4014c0, [ {| l_file := 0x4c0; l_mem := 0x4014c0; l_part := {| pa := 16; psize := 39; pdata := true |} |};
                        {| l_file := 0x4e8; l_mem := 0x4014e8; l_part := {| pa := 8; psize := 8; pdata := true |} |};
                        {| l_file := 0x500; l_mem := 0x401500; l_part := {| pa := 64; psize := 100; pdata := false |} |} ],
     (0x500, 0x401564)).
Proof. vm_compute. reflexivity. Qed.

(* The event stream wild walks (a LOAD segment start followed by its parts) is exactly layout_segment, so the theorems
   above speak about what the correspondence check replays. *)
Theorem C04_event_stream_is_layout_segment :
  forall page ps f m rest,
    run_events f m (ESeg (seg_alignment page ps) :: map EPart ps ++ rest) =
    let '(off, vaddr, pl, (f', m')) := layout_segment page f m ps in
    OSeg off vaddr :: map (fun x => OPart (l_file x) (l_mem x)) pl ++ run_events f' m' rest.
Proof. intros page ps f m rest. cbn [run_events]. rewrite run_events_parts, layout_segment_eq. cbn zeta. destruct (snd (layout_parts _ _ ps)). reflexivity. Qed.
Print Assumptions C04_event_stream_is_layout_segment.
