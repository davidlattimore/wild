(* Where parts land rests on one invariant, [chain]: each part starts at or after the end of the one before it, in the
   file and in memory; order, lower bounds and pairwise disjointness follow from it.  That address and file offset stay
   congruent is a second induction, over the parts that have file contents. *)
From Coq Require Import ZArith List Lia.
From WV Require Import C04.Model.
Import ListNotations.
Open Scope Z_scope.

Lemma align_up_bounds a x : 0 < a -> x <= align_up a x < x + a.
Proof. intros Ha. unfold align_up. pose proof (Z.div_mod (x + a - 1) a ltac:(lia)). pose proof (Z.mod_pos_bound (x + a - 1) a Ha). lia. Qed.
Lemma align_up_mult a x : (a | align_up a x).
Proof. apply Z.divide_factor_r. Qed.

Lemma align_up_shift a f m : (a | m - f) -> align_up a m - align_up a f = m - f.
Proof.
  intros [k Hk]. unfold align_up. destruct (Z.eq_dec a 0) as [->|Ha]; [lia|].
  replace (m + a - 1) with (f + a - 1 + k * a) by lia. rewrite Z.div_add by exact Ha. lia.
Qed.

Lemma align_mod_congruent a ref x : 0 < a -> (a | align_mod a ref x - ref).
Proof.
  intros Ha. exists ((x + a - 1) / a - ref / a). unfold align_mod, align_up. rewrite Z.mod_eq by lia. lia.
Qed.
Lemma align_mod_bounds a ref x : 0 < a -> x <= align_mod a ref x < x + 2 * a.
Proof. intros Ha. unfold align_mod. pose proof (align_up_bounds a x Ha). pose proof (Z.mod_pos_bound ref a Ha). lia. Qed.

Lemma fsize_bounds p : 0 <= psize p -> 0 <= fsize p <= psize p.
Proof. unfold fsize. destruct (pdata p); lia. Qed.

(* layout_parts and layout_segment by projections, so that no proof has to destruct their let-patterns *)
Lemma layout_parts_cons f m p r :
  layout_parts f m (p :: r) =
  let x := {| l_file := align_up (pa p) f; l_mem := align_up (pa p) m; l_part := p |} in
  let rest := layout_parts (l_file x + fsize p) (l_mem x + psize p) r in (x :: fst rest, snd rest).
Proof. cbn. destruct (layout_parts _ _ r). reflexivity. Qed.

Lemma layout_segment_eq page f m ps :
  layout_segment page f m ps =
  let m0 := align_mod (seg_alignment page ps) f m in (f, m0, fst (layout_parts f m0 ps), snd (layout_parts f m0 ps)).
Proof. unfold layout_segment. destruct (layout_parts _ _ ps). reflexivity. Qed.

Lemma layout_parts_parts : forall ps f m, map l_part (fst (layout_parts f m ps)) = ps.
Proof. induction ps as [|p r IH]; intros f m; [reflexivity|]. rewrite layout_parts_cons. cbn. f_equal. apply IH. Qed.

Lemma layout_parts_length ps f m : length (fst (layout_parts f m ps)) = length ps.
Proof. rewrite <- (layout_parts_parts ps f m) at 2. symmetry. apply map_length. Qed.

Lemma layout_parts_app : forall a b f m,
  fst (layout_parts f m (a ++ b)) =
  fst (layout_parts f m a) ++ fst (layout_parts (fst (snd (layout_parts f m a))) (snd (snd (layout_parts f m a))) b).
Proof. induction a as [|p r IH]; intros b f m; [reflexivity|]. cbn [app]. rewrite !layout_parts_cons. cbn. f_equal. apply IH. Qed.

Lemma layout_parts_firstn a b f m : firstn (length a) (fst (layout_parts f m (a ++ b))) = fst (layout_parts f m a).
Proof.
  rewrite layout_parts_app, <- (layout_parts_length a f m), firstn_app, firstn_all, Nat.sub_diag. apply app_nil_r.
Qed.

Lemma layout_parts_aligned : forall ps f m,
  Forall (fun x => (pa (l_part x) | l_file x) /\ (pa (l_part x) | l_mem x)) (fst (layout_parts f m ps)).
Proof.
  induction ps as [|p r IH]; intros f m; [constructor|]. rewrite layout_parts_cons.
  constructor; [split; apply align_up_mult|apply IH].
Qed.

Fixpoint chain (f m : Z) (pl : list placed) : Prop :=
  match pl with
  | [] => True
  | x :: r => f <= l_file x /\ m <= l_mem x /\ 0 <= psize (l_part x) /\
              chain (l_file x + fsize (l_part x)) (l_mem x + psize (l_part x)) r
  end.
Fixpoint ends (f m : Z) (pl : list placed) : Z * Z :=
  match pl with [] => (f, m) | x :: r => ends (l_file x + fsize (l_part x)) (l_mem x + psize (l_part x)) r end.

Lemma ends_app : forall a b f m, ends f m (a ++ b) = ends (fst (ends f m a)) (snd (ends f m a)) b.
Proof. induction a as [|x r IH]; intros b f m; [reflexivity|]. apply IH. Qed.

Lemma chain_weaken pl f m f' m' : f' <= f -> m' <= m -> chain f m pl -> chain f' m' pl.
Proof. destruct pl; [trivial|]. intros ? ? (? & ? & ? & ?). repeat split; try assumption; lia. Qed.

Lemma chain_app : forall a b f m, chain f m a -> chain (fst (ends f m a)) (snd (ends f m a)) b -> chain f m (a ++ b).
Proof.
  induction a as [|x r IH]; intros b f m Ha Hb; [exact Hb|].
  destruct Ha as (? & ? & ? & ?). repeat split; try assumption. apply IH; assumption.
Qed.

Lemma chain_lower : forall pl f m, chain f m pl -> Forall (fun y => f <= l_file y /\ m <= l_mem y) pl.
Proof.
  induction pl as [|x r IH]; intros f m Hc; [constructor|]. destruct Hc as (? & ? & Hs & C).
  constructor; [split; assumption|]. pose proof (fsize_bounds _ Hs).
  eapply Forall_impl; [|exact (IH _ _ C)]. cbn beta. lia.
Qed.

Definition disjoint_pair (x y : placed) : Prop :=
  l_file x + fsize (l_part x) <= l_file y /\ l_mem x + psize (l_part x) <= l_mem y.

Lemma chain_pairwise : forall pl f m, chain f m pl -> ForallOrdPairs disjoint_pair pl.
Proof.
  induction pl as [|x r IH]; intros f m Hc; [constructor|]. destruct Hc as (_ & _ & _ & C).
  constructor; [exact (chain_lower _ _ _ C)|exact (IH _ _ C)].
Qed.

Fixpoint ordered (pl : list placed) : Prop :=
  match pl with
  | x :: ((y :: _) as r) => l_file x + fsize (l_part x) <= l_file y /\ l_mem x + psize (l_part x) <= l_mem y /\ ordered r
  | _ => True
  end.
Lemma chain_ordered : forall pl f m, chain f m pl -> ordered pl.
Proof.
  induction pl as [|x r IH]; intros f m Hc; [exact I|]. destruct Hc as (_ & _ & _ & C). specialize (IH _ _ C).
  destruct r; [exact I|]. destruct C as (? & ? & _). repeat split; assumption.
Qed.

Lemma layout_parts_ends : forall ps f m, snd (layout_parts f m ps) = ends f m (fst (layout_parts f m ps)).
Proof. induction ps as [|p r IH]; intros f m; [reflexivity|]. rewrite layout_parts_cons. apply IH. Qed.

Lemma layout_parts_chain : forall ps f m, Forall (fun p => 0 < pa p /\ 0 <= psize p) ps -> chain f m (fst (layout_parts f m ps)).
Proof.
  induction ps as [|p r IH]; intros f m Hps; [exact I|].
  inversion Hps as [|? ? (Hp0 & Hsz) Hr]; subst. rewrite layout_parts_cons.
  pose proof (align_up_bounds (pa p) f Hp0). pose proof (align_up_bounds (pa p) m Hp0).
  cbn. repeat split; try lia. apply IH, Hr.
Qed.

Fixpoint all_data (ps : list part) : Prop := match ps with [] => True | p :: r => pdata p = true /\ all_data r end.

Lemma layout_parts_data A d : (A | d) -> forall ds f m,
  m - f = d -> Forall (fun p => (pa p | A)) ds -> all_data ds ->
  Forall (fun x => l_mem x - l_file x = d) (fst (layout_parts f m ds)).
Proof.
  intros Hd. induction ds as [|p r IH]; intros f m E Hps Hdata; [constructor|].
  inversion Hps as [|? ? HpA Hr]; subst. destruct Hdata as [Hp Hdata]. rewrite layout_parts_cons.
  pose proof (align_up_shift (pa p) f m (Z.divide_trans _ _ _ HpA Hd)) as Hshift.
  constructor; [exact Hshift|]. apply IH; [|exact Hr|exact Hdata]. cbn. unfold fsize. rewrite Hp. lia.
Qed.

(* powers of two: the largest alignment is a multiple of every other.  The first conjunct of [wf_part p] is
   [is_pow2 (pa p)] written out, and is used as such *)
Definition wf_part (p : part) : Prop := (exists e, 0 <= e /\ pa p = 2 ^ e) /\ 0 <= psize p.
Definition is_pow2 (a : Z) : Prop := exists e, 0 <= e /\ a = 2 ^ e.

Lemma pow2_pos a : is_pow2 a -> 0 < a.
Proof. intros (e & He & ->). apply Z.pow_pos_nonneg; lia. Qed.
Lemma pow2_le_divide a b : is_pow2 a -> is_pow2 b -> a <= b -> (a | b).
Proof.
  intros (i & Hi & ->) (j & Hj & ->) H. apply Z.pow_le_mono_r_iff in H; [|lia|exact Hj].
  exists (2 ^ (j - i)). rewrite <- Z.pow_add_r by lia. f_equal. lia.
Qed.

Lemma fold_max_spec : forall l a, let M := fold_left Z.max l a in In M (a :: l) /\ forall x, In x (a :: l) -> x <= M.
Proof.
  induction l as [|x r IH]; intros a; cbn [fold_left].
  - split; [left; reflexivity|]. intros x [<-|[]]. lia.
  - destruct (IH (Z.max a x)) as [Hin Hle]. split.
    + destruct Hin as [Hin|Hin]; [|right; right; exact Hin]. rewrite <- Hin. destruct (Z.max_spec a x) as [[_ ->]|[_ ->]]; auto with datatypes.
    + intros y [<-|[<-|Hy]]; [| |apply Hle; right; exact Hy]; pose proof (Hle _ (or_introl eq_refl)); lia.
Qed.

Lemma seg_alignment_ge page ps : page <= seg_alignment page ps.
Proof. apply (fold_max_spec (map pa ps) page). left. reflexivity. Qed.

Lemma seg_alignment_spec page ps : is_pow2 page -> Forall wf_part ps ->
  let A := seg_alignment page ps in is_pow2 A /\ (page | A) /\ Forall (fun p => (pa p | A)) ps.
Proof.
  intros Hp Hps. unfold seg_alignment. destruct (fold_max_spec (map pa ps) page) as [Hin Hle].
  rewrite Forall_forall in *.
  assert (HA : is_pow2 (fold_left Z.max (map pa ps) page)).
  { destruct Hin as [<-|Hin]; [exact Hp|]. apply in_map_iff in Hin. destruct Hin as (p & <- & Hin). exact (proj1 (Hps p Hin)). }
  split; [exact HA|]. split; [apply pow2_le_divide; auto with datatypes|].
  intros p Hin'. apply pow2_le_divide; [exact (proj1 (Hps p Hin'))|exact HA|]. apply Hle. right. apply in_map. exact Hin'.
Qed.

Lemma wf_weaken ps : Forall wf_part ps -> Forall (fun p => 0 < pa p /\ 0 <= psize p) ps.
Proof. intros H. eapply Forall_impl; [|exact H]. intros p [Hp Hs]. split; [exact (pow2_pos _ Hp)|exact Hs]. Qed.

Lemma layout_image_chain page : forall segs f m,
  0 < page -> Forall (Forall (fun p => 0 < pa p /\ 0 <= psize p)) segs ->
  chain f m (image_parts (layout_image page f m segs)).
Proof.
  induction segs as [|s r IH]; intros f m Hp Hw; [exact I|].
  inversion Hw as [|? ? Hs Hr]; subst. cbn [layout_image]. rewrite layout_segment_eq. cbn zeta.
  pose proof (seg_alignment_ge page s) as HA. pose proof (align_mod_bounds (seg_alignment page s) f m ltac:(lia)) as Hge.
  rewrite layout_parts_ends. set (pl := fst (layout_parts f _ s)).
  destruct (ends f _ pl) as [f' m'] eqn:E. unfold image_parts. cbn [map snd concat].
  apply chain_weaken with f (align_mod (seg_alignment page s) f m); [lia|lia|].
  apply chain_app; [exact (layout_parts_chain s f _ Hs)|]. rewrite E. apply IH; assumption.
Qed.

(* if NOBITS parts did not take part in the segment alignment, a valid bias would misalign one *)
Definition seg_alignment_data_only (page : Z) (ps : list part) : Z := fold_left Z.max (map pa (filter pdata ps)) page.

Lemma run_events_parts : forall ps f m rest,
  run_events f m (map EPart ps ++ rest) =
  map (fun x => OPart (l_file x) (l_mem x)) (fst (layout_parts f m ps)) ++
  run_events (fst (snd (layout_parts f m ps))) (snd (snd (layout_parts f m ps))) rest.
Proof.
  induction ps as [|p r IH]; intros f m rest; [reflexivity|]. rewrite layout_parts_cons.
  cbn [map app run_events]. rewrite IH. reflexivity.
Qed.
