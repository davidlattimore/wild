(* C30 — constructor and destructor order matches GNU ld: the property theorems.
   Model: C30/Model.v (wild: init_fini_priority, one secondary section per priority, parts by alignment,
   .ctors/.dtors reversed; GNU ld: SORT_BY_INIT_PRIORITY with its name tie-break, then the plain sections). *)
From Coq Require Import ZArith List Bool Lia.
From WV Require Import C30.Model C30.Proofs C30.Extent C30.ExtentProofs.
From Coq Require Import Sorting.Permutation.
Import ListNotations.
Open Scope Z_scope.

(* For every list of array sections (any number of objects and archives, in link order) in which every suffix
   is a priority below 65535 after the .ctors/.dtors inversion, all sections share one alignment, and equal
   priorities are spelled the same way (what GCC/clang emit): wild emits the entries in GNU ld's order. *)
Theorem C30_order_matches_gnu_ld :
  forall a l, Forall (fun s => good a s = true) l -> name_determined l -> wild_order l = gnu_order l.
Proof.
  intros a l Hg Hn. rewrite Forall_forall in Hg. pose proof (fun s Hs => good_keys a s (Hg s Hs)) as G.
  rewrite wild_order_sorted. unfold section_members, gnu_order.
  (* one alignment: the members are in input order *)
  rewrite (isort_constant_key (fun s => - align s) l)
    by (intros x y Hx Hy; destruct (G x Hx) as [-> _], (G y Hy) as [-> _]; reflexivity).
  (* the suffixed sections have the smaller keys, so they come out first *)
  rewrite (isort_split wild_key has_suffix 65535 l), flat_map_app.
  2:{ apply Forall_forall. intros s Hs. destruct (G s Hs) as (_ & K1 & K2).
      destruct (has_suffix s); [destruct (K1 eq_refl); lia|rewrite (K2 eq_refl); lia]. }
  f_equal; f_equal.
  - (* among them ld's comparator is the order of the keys *)
    symmetry. apply isort_by_ext. intros x y Hx Hy. apply filter_In in Hx, Hy. destruct Hx as [Hx Px], Hy as [Hy Py].
    destruct (G x Hx) as (_ & Kx & _), (G y Hy) as (_ & Ky & _). destruct (Kx Px) as [-> _], (Ky Py) as [-> _].
    apply gnu_le_prio, (Hn x y Hx Hy Px Py).
  - (* the plain sections share the last key *)
    apply isort_constant_key. intros x y Hx Hy. apply filter_In in Hx, Hy. destruct Hx as [Hx Px], Hy as [Hy Py].
    apply negb_true_iff in Px, Py. destruct (G x Hx) as (_ & _ & Kx), (G y Hy) as (_ & _ & Ky).
    rewrite (Kx Px), (Ky Py). reflexivity.
Qed.
Print Assumptions C30_order_matches_gnu_ld.

(* the sorting fact underneath, for any key: a stable sort is the concatenation of the key buckets, each in input order *)
Theorem C30_stable_sort_is_bucket_concat :
  forall (A : Type) (key : A -> Z) lo n l,
    Forall (fun x => lo <= key x < lo + Z.of_nat n) l ->
    isort key l = flat_map (fun k => filter (fun x => key x =? k) l) (range lo n).
Proof. exact @isort_is_bucket_concat. Qed.
Print Assumptions C30_stable_sort_is_bucket_concat.

(* how the priorities correspond on those inputs (legacy names carry 65535 - priority) *)
Theorem C30_priority_agrees :
  forall a s, good a s = true ->
    align s = a /\
    (has_suffix s = true -> wild_key s = gnu_prio s /\ 0 <= gnu_prio s < 65535) /\
    (has_suffix s = false -> wild_key s = 65535).
Proof. exact good_keys. Qed.
Print Assumptions C30_priority_agrees.

Definition S (lg : bool) (sf : option (list Z)) (a : Z) (e : list Z) : sec :=
  {| legacy := lg; suffix := sf; align := a; entries := e |}.

(* outside that domain the statement is false of the model (and of wild: see known_findings.json) *)
Theorem C30_refuted_priority_65535 :   (* o0: .ctors [4 5]   o1: .ctors.0 [6 7] *)
  let l := [S true None 8 [4; 5]; S true (Some [48]) 8 [6; 7]] in
  wild_order l = [5; 4; 7; 6] /\ gnu_order l = [7; 6; 5; 4].
Proof.
  (* evaluated through the closed form, here and below: wild_order as defined walks 65537 buckets *)
  cbv zeta. rewrite wild_order_sorted. split; reflexivity.
Qed.
Print Assumptions C30_refuted_priority_65535.

Theorem C30_refuted_equal_priority_different_name :   (* o0: .init_array.100 [3 4]   o1: .ctors.65435 [10 11 12] *)
  let l := [S false (Some [49; 48; 48]) 8 [3; 4]; S true (Some [54; 53; 52; 51; 53]) 8 [10; 11; 12]] in
  wild_order l = [3; 4; 12; 11; 10] /\ gnu_order l = [12; 11; 10; 3; 4].
Proof. cbv zeta. rewrite wild_order_sorted. split; reflexivity. Qed.
Print Assumptions C30_refuted_equal_priority_different_name.

Theorem C30_refuted_mixed_alignment :   (* o0: .init_array align 8 [1]   o1: .init_array align 16 [2] *)
  let l := [S false None 8 [1]; S false None 16 [2]] in
  wild_order l = [2; 1] /\ gnu_order l = [1; 2].
Proof. cbv zeta. rewrite wild_order_sorted. split; reflexivity. Qed.
Print Assumptions C30_refuted_mixed_alignment.

(* non-vacuity: a canonical input with priorities, legacy sections and two objects meets the hypotheses *)
Example C30_hypotheses_satisfiable :
  let l := [S false None 8 [1]; S false (Some [48; 48; 49; 48; 49]) 8 [2; 3];       (* .init_array  .init_array.00101 *)
            S true (Some [54; 53; 48; 51; 53]) 8 [4; 5]; S true None 8 [6; 7]] in    (* .ctors.65035 (= 500)  .ctors *)
  Forall (fun s => good 8 s = true) l /\ wild_order l = [2; 3; 5; 4; 1; 7; 6] /\ gnu_order l = [2; 3; 5; 4; 1; 7; 6].
Proof. cbv zeta. rewrite wild_order_sorted. split; [repeat constructor|split; reflexivity]. Qed.

(* The extent of the output section (what DT_INIT_ARRAYSZ / sh_size / __init_array_start..end say).  For every start
   position, every list of per-priority parts (any power-of-two alignments, any positive sizes) and every order in which
   the parts are merged into the section record (wild merges in creation order, not layout order): the section starts
   exactly at its first part, every part lies inside it, it ends where the last part ends, and memory size = file size. *)
Theorem C30_section_covers_every_entry : forall p0 bs ids,
  (forall b, In b bs -> 0 < snd b) ->
  let s := off (primary p0 bs) in
  Permutation ids (place s bs) ->
  let sec := section p0 bs ids in
  off sec = s /\
  (forall r, In r (place s bs) -> off sec <= off r /\ rend r <= rend sec) /\
  rend sec = endp s bs /\
  msize sec = size sec /\
  match place s bs with r :: _ => off r = off sec | [] => True end.
Proof.
  intros p0 bs ids Hpos s Hperm sec. destruct (place_bounds bs s Hpos) as [_ Hall].
  (* merged in any order the parts give what they give in layout order: the empty primary grown to the last end *)
  assert (E : sec = grow (primary p0 bs) (endp s bs)).
  { rewrite <- (fold_place bs s (primary p0 bs) Hpos (Z.add_0_r s)). symmetry.
    apply fold_merge_perm; [symmetry; exact Hperm|]. apply Forall_forall. intros r Hr. apply (Hall r Hr). }
  clearbody sec. subst sec. rewrite rend_grow. cbn [grow off size msize].
  split; [|split; [|split; [|split]]].
  - reflexivity.
  - intros r Hr. destruct (Hall r Hr) as (_ & Ha & Hb). split; assumption.
  - reflexivity.
  - unfold rend. cbn [primary off size msize]. lia.
  - (* the primary is aligned to the largest alignment, so the first part needs no padding *)
    destruct bs as [|[k sz] bs']; [exact I|].
    apply align_up_id. eapply mod_pow_le; [|apply align_up_mod].
    cbn [max_exp]. lia.
Qed.
Print Assumptions C30_section_covers_every_entry.

(* the pinned tree (sizes summed, primary aligned to 8 only) is refuted: a lone 16-aligned part placed after a position
   that is 8 mod 16 — the section [8,24) starts at a padding word and stops before the last entry [24,32) (repaired) *)
Theorem C30_refuted_sum_of_part_sizes :
  let parts := place (off (primary_old 8)) [(4%nat, 16)] in
  let sec := section_old 8 parts in
  off sec = 8 /\ rend sec = 24 /\ map off parts = [16] /\ map rend parts = [32].
Proof. vm_compute. repeat split. Qed.
Print Assumptions C30_refuted_sum_of_part_sizes.
