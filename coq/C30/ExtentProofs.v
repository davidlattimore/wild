From Coq Require Import ZArith List Lia Sorting.Permutation.
From WV Require Import C30.Extent.
Import ListNotations.
Open Scope Z_scope.

Lemma pow_pos k : 0 < 2 ^ Z.of_nat k.
Proof. apply Z.pow_pos_nonneg; lia. Qed.

Lemma align_up_ge x k : x <= align_up x k.
Proof.
  unfold align_up. pose proof (pow_pos k) as HP. set (P := 2 ^ Z.of_nat k) in *.
  pose proof (Z.div_mod (x + P - 1) P ltac:(lia)) as E. pose proof (Z.mod_pos_bound (x + P - 1) P HP) as B.
  lia.
Qed.

Lemma align_up_mod x k : (align_up x k) mod 2 ^ Z.of_nat k = 0.
Proof. apply Z.mod_mul. pose proof (pow_pos k). lia. Qed.

Lemma align_up_id x k : x mod 2 ^ Z.of_nat k = 0 -> align_up x k = x.
Proof.
  intros H. unfold align_up. pose proof (pow_pos k) as HP. set (P := 2 ^ Z.of_nat k) in *.
  apply Z.mod_divide in H; [|lia]. destruct H as [c ->].
  replace (c * P + P - 1) with (P - 1 + c * P) by lia. rewrite Z.div_add by lia.
  rewrite (Z.div_small (P - 1) P) by lia. lia.
Qed.

Lemma mod_pow_le x (j k : nat) : (j <= k)%nat -> x mod 2 ^ Z.of_nat k = 0 -> x mod 2 ^ Z.of_nat j = 0.
Proof.
  intros Hjk H. pose proof (pow_pos k). pose proof (pow_pos j).
  apply Z.mod_divide in H; [|lia]. apply Z.mod_divide; [lia|].
  eapply Z.divide_trans; [|exact H].
  exists (2 ^ (Z.of_nat k - Z.of_nat j)). rewrite <- Z.pow_add_r by lia. f_equal. lia.
Qed.

(* where [place cur bs] stops *)
Fixpoint endp (cur : Z) (bs : list (nat * Z)) : Z :=
  match bs with [] => cur | (k, sz) :: r => endp (align_up cur k + sz) r end.

Lemma place_bounds : forall bs cur, (forall b, In b bs -> 0 < snd b) ->
  cur <= endp cur bs /\
  forall r, In r (place cur bs) -> 0 < size r /\ cur <= off r /\ rend r <= endp cur bs.
Proof.
  induction bs as [|[k sz] bs IH]; intros cur Hpos; cbn [endp place].
  - split; [lia|intros r []].
  - assert (Hsz : 0 < sz) by (apply (Hpos (k, sz)); left; reflexivity).
    destruct (IH (align_up cur k + sz) (fun b Hb => Hpos b (or_intror Hb))) as [Hle Hall].
    pose proof (align_up_ge cur k) as Hge. split; [lia|].
    intros r [<-|Hr]; [unfold rend; cbn [off size]; lia|]. destruct (Hall r Hr) as (H1 & H2 & H3). lia.
Qed.

(* All that merging does to a record is move its end: the start stays, memory and file size grow alike. *)
Definition grow (a : rec) (e : Z) : rec := {| off := off a; size := e - off a; msize := msize a + (e - rend a) |}.

Lemma rend_grow a e : rend (grow a e) = e.
Proof. unfold rend, grow. cbn [off size]. lia. Qed.
Lemma grow_grow a e e' : grow (grow a e) e' = grow a e'.
Proof. unfold grow, rend. cbn [off size msize]. f_equal. lia. Qed.

Lemma merge_pos a b : 0 < size b -> merge a b = grow a (Z.max (rend a) (rend b)).
Proof. intros H. unfold merge, grow, rend. destruct (Z.ltb_spec 0 (size b)); [f_equal; lia|lia]. Qed.

Lemma fold_merge_perm l l' : Permutation l l' -> Forall (fun r => 0 < size r) l ->
  forall a, fold_left merge l a = fold_left merge l' a.
Proof.
  induction 1 as [|x l l' _ IH|x y l|l l' l'' H1 IH1 H2 IH2]; intros Hp a; cbn [fold_left]; auto.
  - apply IH. inversion Hp; assumption.
  - (* two parts in either order grow the record to the same end, the largest of the three *)
    inversion Hp as [|? ? Hy Hp']; inversion Hp'; subst. f_equal.
    rewrite !merge_pos, !rend_grow, !grow_grow by assumption. f_equal. lia.
  - rewrite IH1 by assumption. apply IH2. eapply Permutation_Forall; eassumption.
Qed.

Lemma grow_same a : grow a (rend a) = a.
Proof. destruct a as [o sz ms]. unfold grow, rend. cbn [off size msize]. f_equal; lia. Qed.

Lemma fold_place : forall bs cur a, (forall b, In b bs -> 0 < snd b) -> rend a = cur ->
  fold_left merge (place cur bs) a = grow a (endp cur bs).
Proof.
  induction bs as [|[k sz] bs IH]; intros cur a Hpos <-; cbn [place endp fold_left]; [symmetry; apply grow_same|].
  assert (Hsz : 0 < sz) by (apply (Hpos (k, sz)); left; reflexivity).
  pose proof (align_up_ge (rend a) k) as Hge. rewrite merge_pos by exact Hsz.
  replace (Z.max (rend a) _) with (align_up (rend a) k + sz) by (unfold rend in *; cbn [off size]; lia).
  rewrite (IH _ _ (fun b Hb => Hpos b (or_intror Hb)) (rend_grow _ _)). apply grow_grow.
Qed.

Example section_covers_example :
  let bs := [(3%nat, 8); (4%nat, 16); (3%nat, 24)] in
  let s := off (primary 8 bs) in
  let ids := rev (place s bs) in
  s = 16 /\ map off (place s bs) = [16; 32; 48] /\ off (section 8 bs ids) = 16 /\ rend (section 8 bs ids) = 72.
Proof. vm_compute. repeat split. Qed.
