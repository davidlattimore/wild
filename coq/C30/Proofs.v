(* C30 — a stable sort splits at any key threshold, either part sorted as if the other were not there, so it is
   the concatenation of its key buckets; how wild's and GNU ld's priorities correspond on canonical inputs;
   wild's order in closed form. *)
From Coq Require Import ZArith List Bool Lia.
From WV Require Import C30.Model Base.Sorting.
Open Scope Z_scope.

Lemma filter_filter {A} (f g : A -> bool) l : filter f (filter g l) = filter (fun x => f x && g x) l.
Proof.
  induction l as [|x t IH]; cbn [filter]; [reflexivity|].
  destruct (g x); cbn [filter]; rewrite ?andb_false_r, ?andb_true_r, IH; reflexivity.
Qed.

Lemma flat_map_ext_in {B C} (f g : B -> list C) l : (forall x, In x l -> f x = g x) -> flat_map f l = flat_map g l.
Proof. intros H. rewrite !flat_map_concat_map. f_equal. apply map_ext_in, H. Qed.

Lemma flat_map_flat_map {A B C} (f : A -> list B) (g : B -> list C) l :
  flat_map g (flat_map f l) = flat_map (fun x => flat_map g (f x)) l.
Proof. induction l as [|x t IH]; cbn [flat_map]; [reflexivity|]. rewrite flat_map_app, IH. reflexivity. Qed.

Lemma in_range k lo n : In k (range lo n) -> lo <= k < lo + Z.of_nat n.
Proof.
  revert lo. induction n as [|n IH]; intros lo H; [contradiction|].
  destruct H as [<-|H]; [lia|]. apply IH in H. lia.
Qed.

Section Buckets.
  Context {A : Type} (key : A -> Z).
  Definition inb (k : Z) (x : A) : bool := key x =? k.

  Lemma isort_forall (P : A -> Prop) l : Forall P l -> Forall P (isort key l).
  Proof. rewrite !Forall_forall. intros H x Hx. apply H, (isort_in key), Hx. Qed.

  Lemma insert_past x l1 l2 : Forall (fun y => key y < key x) l1 -> insert key x (l1 ++ l2) = l1 ++ insert key x l2.
  Proof.
    induction 1 as [|y t Hy _ IH]; cbn [app insert]; [reflexivity|].
    destruct (Z.leb_spec (key x) (key y)); [lia|]. rewrite IH. reflexivity.
  Qed.

  Lemma insert_before x l1 l2 : Forall (le_key key x) l2 -> insert key x (l1 ++ l2) = insert key x l1 ++ l2.
  Proof.
    intros H. induction l1 as [|y t IH]; cbn [app insert]; [apply insert_below, H|].
    destruct (key x <=? key y); [reflexivity|]. rewrite IH. reflexivity.
  Qed.

  Lemma isort_split (p : A -> bool) m l :
    Forall (fun x => if p x then key x < m else m <= key x) l ->
    isort key l = isort key (filter p l) ++ isort key (filter (fun x => negb (p x)) l).
  Proof.
    induction 1 as [|x t Hx Ht IH]; [reflexivity|]. cbn [isort filter]. rewrite IH. rewrite Forall_forall in Ht.
    destruct (p x) eqn:E.
    - apply insert_before, isort_forall, Forall_forall. intros y Hy. apply filter_In in Hy. destruct Hy as [Hy Py].
      apply negb_true_iff in Py. specialize (Ht y Hy). rewrite Py in Ht. unfold le_key. lia.
    - apply insert_past, isort_forall, Forall_forall. intros y Hy. apply filter_In in Hy. destruct Hy as [Hy Py].
      specialize (Ht y Hy). rewrite Py in Ht. lia.
  Qed.

  Lemma isort_constant_key l : (forall x y, In x l -> In y l -> key x = key y) -> isort key l = l.
  Proof.
    induction l as [|x t IH]; intros H; cbn [isort]; [reflexivity|].
    rewrite IH by (intros; apply H; right; assumption).
    apply insert_below, Forall_forall. intros y Hy. unfold le_key. rewrite (H x y); cbn; auto. lia.
  Qed.

  Theorem isort_is_bucket_concat lo n l :
    Forall (fun x => lo <= key x < lo + Z.of_nat n) l ->
    isort key l = flat_map (fun k => filter (inb k) l) (range lo n).
  Proof.
    revert lo l. induction n as [|n IH]; intros lo l Hr; cbn [range flat_map].
    - destruct Hr; [reflexivity|lia].
    - (* the least key's bucket comes out first, in input order *)
      rewrite (isort_split (inb lo) (lo + 1) l)
        by (eapply Forall_impl; [|exact Hr]; cbv beta; intros x Hx; unfold inb; destruct (Z.eqb_spec (key x) lo); lia).
      rewrite (isort_constant_key (filter (inb lo) l))
        by (intros x y Hx Hy; apply filter_In in Hx, Hy; destruct Hx as [_ Ex], Hy as [_ Ey];
            apply Z.eqb_eq in Ex, Ey; congruence).
      f_equal. rewrite (IH (lo + 1)).
      + (* the later buckets do not see that the first one was taken out *)
        apply flat_map_ext_in. intros k Hk. apply in_range in Hk. rewrite filter_filter. apply filter_ext.
        intros x. unfold inb. destruct (Z.eqb_spec (key x) k), (Z.eqb_spec (key x) lo); try reflexivity. lia.
      + rewrite Forall_forall in *. intros x Hx. apply filter_In in Hx. destruct Hx as [Hx E].
        apply negb_true_iff, Z.eqb_neq in E. specialize (Hr x Hx). lia.
  Qed.

  Lemma insert_by_ext (le : A -> A -> bool) x l :
    Forall (fun y => le x y = (key x <=? key y)) l -> insert_by le x l = insert key x l.
  Proof.
    induction 1 as [|y t Hy _ IH]; cbn [insert_by insert]; [reflexivity|].
    rewrite Hy. destruct (key x <=? key y); [reflexivity|]. f_equal. exact IH.
  Qed.
  Lemma isort_by_ext (le : A -> A -> bool) l :
    (forall x y, In x l -> In y l -> le x y = (key x <=? key y)) -> isort_by le l = isort key l.
  Proof.
    induction l as [|x t IH]; intros H; cbn [isort_by isort]; [reflexivity|].
    rewrite IH by (intros; apply H; right; assumption).
    apply insert_by_ext, isort_forall, Forall_forall. intros y Hy. apply H; [left; reflexivity|right; exact Hy].
  Qed.
End Buckets.

Definition name_determined (l : list sec) : Prop :=
  forall s t, In s l -> In t l -> has_suffix s = true -> has_suffix t = true ->
              gnu_prio s = gnu_prio t -> legacy s = legacy t /\ suffix s = suffix t.

Lemma dec_val_nonneg l : forall acc, forallb is_digit l = true -> 0 <= acc -> 0 <= dec_val acc l.
Proof.
  induction l as [|c t IH]; intros acc Hd Ha; [exact Ha|].
  cbn [forallb] in Hd. apply andb_prop in Hd. destruct Hd as [Hc Ht].
  apply andb_prop in Hc. destruct Hc as [H1 H2]. apply Z.leb_le in H1. apply Z.leb_le in H2.
  apply IH; [exact Ht|lia].
Qed.
Lemma numeric_nonneg l v : numeric l = Some v -> 0 <= v.
Proof.
  unfold numeric. destruct l as [|c t]; [discriminate|].
  destruct (forallb is_digit (c :: t)) eqn:E; [|discriminate].
  intros H. injection H as <-. apply (dec_val_nonneg (c :: t) 0); [exact E|lia].
Qed.

Lemma good_keys a s : good a s = true ->
  align s = a /\
  (has_suffix s = true -> wild_key s = gnu_prio s /\ 0 <= gnu_prio s < 65535) /\
  (has_suffix s = false -> wild_key s = 65535).
Proof.
  unfold wild_key, wild_prio, wild_suffix_prio, gnu_prio, has_suffix.
  intros H. apply andb_prop in H. destruct H as [Ha H]. apply Z.eqb_eq in Ha. split; [exact Ha|].
  destruct (suffix s) as [sf|]; [|split; [discriminate|reflexivity]].
  split; [|discriminate]. intros _.
  destruct (numeric sf) as [v|] eqn:En; [|discriminate].
  apply numeric_nonneg in En. unfold ULONG, INT_MAX.
  (* v is at most 65535, so neither side clamps it *)
  destruct (legacy s).
  - apply andb_prop in H. destruct H as [H1 H2]. apply Z.ltb_lt in H1. apply Z.leb_le in H2.
    rewrite (proj2 (Z.ltb_lt v (2 ^ 32))), (Z.min_l v (2 ^ 64 - 1)), (Z.mod_small (65535 - v)),
      (proj2 (Z.leb_le (65535 - v) (2 ^ 31 - 1))) by lia.
    lia.
  - apply Z.ltb_lt in H.
    rewrite (proj2 (Z.ltb_lt v (2 ^ 32))), (Z.min_l v (2 ^ 64 - 1)), (proj2 (Z.leb_le v (2 ^ 31 - 1))) by lia.
    lia.
Qed.

Lemma bytes_le_refl l : bytes_le l l = true.
Proof. induction l as [|x t IH]; cbn [bytes_le]; [reflexivity|]. rewrite Z.eqb_refl, IH. apply orb_true_r. Qed.

Lemma gnu_le_prio s t :
  (gnu_prio s = gnu_prio t -> legacy s = legacy t /\ suffix s = suffix t) -> gnu_le s t = (gnu_prio s <=? gnu_prio t).
Proof.
  intros H. unfold gnu_le. destruct (Z.eqb_spec (gnu_prio s) (gnu_prio t)) as [E|E]; cbn [andb].
  - destruct (H E) as [El Es]. unfold name_le, sfx. rewrite El, Es, eqb_reflx, bytes_le_refl, E, Z.leb_refl. apply orb_true_r.
  - rewrite orb_false_r. destruct (Z.ltb_spec (gnu_prio s) (gnu_prio t)), (Z.leb_spec (gnu_prio s) (gnu_prio t)); lia || reflexivity.
Qed.

Lemma wild_key_range s : -1 <= wild_key s < -1 + Z.of_nat (Z.to_nat 65537).
Proof.
  unfold wild_key, wild_prio, wild_suffix_prio.
  destruct (suffix s) as [sf|]; [|lia]. destruct (numeric sf) as [v|] eqn:En; [|lia].
  apply numeric_nonneg in En. destruct (v <? 2 ^ 32); [|lia]. destruct (legacy s); lia.
Qed.

(* with this the 65537 buckets of the definition are never needed to evaluate wild_order *)
Theorem wild_order_sorted l : wild_order l = flat_map emit (isort wild_key (section_members l)).
Proof.
  unfold wild_order.
  rewrite (isort_is_bucket_concat wild_key (-1) (Z.to_nat 65537) (section_members l))
    by (apply Forall_forall; intros; apply wild_key_range).
  rewrite flat_map_flat_map. apply flat_map_ext. intros k. unfold bucket, section_members.
  rewrite <- filter_isort_comm. reflexivity.
Qed.
