From Coq Require Import ZArith List Lia Sorting.Permutation Sorting.Sorted.
From WV Require Import Base.ListX Base.Sorting C06.Model.
Import ListNotations.

Lemma update_length {A} (l : list A) i v : length (update l i v) = length l.
Proof. revert i; induction l as [|x r IH]; intros [|j]; cbn; auto. Qed.
Lemma nth_update_same {A} (l : list A) i v d : i < length l -> nth i (update l i v) d = v.
Proof. revert i; induction l as [|x r IH]; intros [|j] H; cbn in *; try lia; auto. apply IH. lia. Qed.
Lemma nth_update_other {A} (l : list A) i j v d : i <> j -> nth j (update l i v) d = nth j l d.
Proof. revert i j; induction l as [|x r IH]; intros [|i] [|j] H; cbn; auto; try lia. Qed.

Section Scatter.
  Context {A : Type} (f : nat -> A) (d : A).

  Lemma fill_length order : forall arr, length (fold_left (fun arr i => update arr i (f i)) order arr) = length arr.
  Proof. induction order as [|i r IH]; intros arr; cbn [fold_left]; [reflexivity|]. rewrite IH. apply update_length. Qed.

  (* what is written at j depends on j alone, so a slot that holds f j keeps it whatever completes later *)
  Lemma fill_nth : forall order arr j, j < length arr -> In j order \/ nth j arr d = f j -> nth j (fold_left (fun arr i => update arr i (f i)) order arr) d = f j.
  Proof.
    induction order as [|i r IH]; intros arr j Hj H; [destruct H as [[]|H]; exact H|].
    apply IH; [rewrite update_length; exact Hj|]. destruct (Nat.eq_dec i j) as [->|Hne].
    - right. apply nth_update_same, Hj.
    - rewrite nth_update_other by exact Hne. destruct H as [[H|H]|H]; [contradiction|left; exact H|right; exact H].
  Qed.

  Lemma scatter_is_map n order : (forall j, j < n -> In j order) -> scatter f d n order = map f (seq 0 n).
  Proof.
    intros Hall. unfold scatter. apply (nth_ext _ _ d (f 0)); rewrite fill_length, repeat_length.
    - rewrite map_length, seq_length. reflexivity.
    - intros j Hj. rewrite fill_nth by (rewrite ?repeat_length; auto). rewrite map_nth, seq_nth by exact Hj. reflexivity.
  Qed.
End Scatter.

(* sort_by key is C30.Model.isort key up to conversion, so the lemmas of Base.Sorting apply to it as they stand *)
Section Sort.
  Context {A : Type} (key : A -> Z).

  Lemma sort_by_perm l : Permutation l (sort_by key l).
  Proof. exact (isort_perm key l). Qed.
  Lemma sort_by_sorted l : StronglySorted (le_key key) (sort_by key l).
  Proof. exact (isort_sorted key l). Qed.

  Lemma key_inj l a b : NoDup (map key l) -> In a l -> In b l -> key a = key b -> a = b.
  Proof.
    induction l as [|x r IH]; intros Hn Ha Hb E; [contradiction|]. inversion Hn as [|? ? Hx Hr]; subst.
    destruct Ha as [->|Ha], Hb as [->|Hb]; auto.
    - exfalso. apply Hx. rewrite E. apply in_map. exact Hb.
    - exfalso. apply Hx. rewrite <- E. apply in_map. exact Ha.
  Qed.

  Lemma sort_by_perm_eq l l' : NoDup (map key l) -> Permutation l l' -> sort_by key l = sort_by key l'.
  Proof. intros Hn. apply (isort_perm_eq key). intros x y. apply key_inj. exact Hn. Qed.
End Sort.

Section Merge.
  Context {A : Type} (res : nat -> A).

  Lemma take_parked_some k : forall (l : list (nat * A)) v rest,
    take_parked k l = Some (v, rest) -> Permutation l ((k, v) :: rest).
  Proof.
    induction l as [|[g w] r IH]; intros v rest H; cbn [take_parked] in H; [discriminate|].
    destruct (Nat.eqb_spec g k) as [->|Hne]; [injection H as -> ->; reflexivity|].
    destruct (take_parked k r) as [[w' r']|]; [|discriminate]. injection H as -> <-.
    rewrite perm_swap. apply perm_skip, IH. reflexivity.
  Qed.
  Lemma take_parked_none k : forall (l : list (nat * A)), take_parked k l = None -> ~ In k (map fst l).
  Proof.
    induction l as [|[g w] r IH]; intros H; cbn [take_parked] in H; [intros []|].
    destruct (Nat.eqb_spec g k) as [->|Hne]; [discriminate|]. destruct (take_parked k r) as [[w' r']|]; [discriminate|].
    intros [H1|H1]; [exact (Hne H1)|exact (IH eq_refl H1)].
  Qed.

  (* [done]: the groups that have completed so far, in any order, repeats allowed.  The bookkeeping is one multiset
     equation: the groups consumed and the groups parked are together exactly [done]. *)
  Definition minv (done : list nat) (m : merger A) : Prop :=
    consumed m = map res (seq 0 (next m)) /\
    Forall (fun gv => snd gv = res (fst gv)) (parked m) /\
    Permutation done (seq 0 (next m) ++ map fst (parked m)).

  Lemma drain_inv done : forall fuel m, minv done m -> length (parked m) <= fuel ->
    minv done (drain fuel m) /\ ~ In (next (drain fuel m)) (map fst (parked (drain fuel m))).
  Proof.
    induction fuel as [|fuel IH]; intros m Hi Hf; cbn [drain].
    { split; [exact Hi|]. destruct (parked m); [intros []|cbn in Hf; lia]. }
    destruct (take_parked (next m) (parked m)) as [[v rest]|] eqn:E; [|split; [exact Hi|exact (take_parked_none _ _ E)]].
    apply take_parked_some in E. destruct Hi as (I1 & I2 & I3).
    apply (Permutation_Forall E) in I2. inversion I2 as [|? ? Hv Hrest]. cbn [fst snd] in Hv.
    apply IH; [|apply Permutation_length in E; cbn [parked length] in *; lia].
    repeat split; cbn [next parked consumed].
    - rewrite I1, seq_S, map_app, Hv. reflexivity.
    - exact Hrest.
    - apply (Permutation_trans I3). rewrite seq_S, <- app_assoc. apply Permutation_app_head.
      exact (Permutation_map fst E).
  Qed.

  Lemma complete_inv done m g : minv done m ->
    minv (g :: done) (complete res m g) /\ ~ In (next (complete res m g)) (map fst (parked (complete res m g))).
  Proof.
    intros (I1 & I2 & I3). apply drain_inv; [|cbn; lia].
    repeat split; [exact I1|constructor; [reflexivity|exact I2]|].
    apply (Permutation_trans (perm_skip g I3)), Permutation_middle.
  Qed.

  Lemma merge_fold_inv : forall order done m, minv done m -> ~ In (next m) (map fst (parked m)) ->
    let m' := fold_left (complete res) order m in
    minv (rev order ++ done) m' /\ ~ In (next m') (map fst (parked m')).
  Proof.
    induction order as [|g r IH]; intros done m Hi Hd; cbn [fold_left rev app]; [split; assumption|].
    rewrite <- app_assoc. destruct (complete_inv done m g Hi) as [Hi' Hd']. exact (IH _ _ Hi' Hd').
  Qed.
End Merge.

Fixpoint contents (rs : list region) : list Z :=
  match rs with [] => [] | Pad n :: t => repeat 0%Z n ++ contents t | Data b :: t => b ++ contents t end.

Lemma contents_length rs : length (contents rs) = total rs.
Proof. induction rs as [|[n|b] t IH]; cbn [contents total rlen]; rewrite ?app_length, ?repeat_length, ?IH; reflexivity. Qed.

Lemma write_regions_eq : forall rs buf, write_regions rs buf = contents rs ++ skipn (total rs) buf.
Proof.
  induction rs as [|[n|b] t IH]; intros buf; cbn [write_regions contents total rlen]; [reflexivity| |];
    rewrite IH, skipn_skipn, app_assoc; reflexivity.
Qed.

Lemma write_regions_tiling rs buf : total rs = length buf -> write_regions rs buf = contents rs.
Proof. intros H. rewrite write_regions_eq, H, skipn_all. apply app_nil_r. Qed.
