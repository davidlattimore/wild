From Coq Require Import ZArith List Lia Sorting.Permutation.
From WV Require Import C06.Model C06.Proofs.
Import ListNotations.

(* (1) results stored by index: whatever order the parallel tasks complete in (every index at least once), the table
   is `map f [0..n)`. *)
Theorem C06_indexed_results_ignore_completion_order :
  forall (A : Type) (f : nat -> A) d n order order',
    (forall j, j < n -> In j order) -> (forall j, j < n -> In j order') ->
    scatter f d n order = scatter f d n order' /\ scatter f d n order = map f (seq 0 n).
Proof. intros A f d n o o' H H'. rewrite (scatter_is_map f d n o H), (scatter_is_map f d n o' H'). split; reflexivity. Qed.
Print Assumptions C06_indexed_results_ignore_completion_order.

(* (2) a collection sorted by a key that identifies its elements comes out the same for every arrival order *)
Theorem C06_sorted_by_identifying_key_ignores_arrival_order :
  forall (A : Type) (key : A -> Z) l l',
    NoDup (map key l) -> Permutation l l' -> sort_by key l = sort_by key l'.
Proof. intros A key l l'. apply sort_by_perm_eq. Qed.
Print Assumptions C06_sorted_by_identifying_key_ignores_arrival_order.

(* (3) per-group results are consumed in group order whatever order the groups finish in, and nothing stays parked *)
Theorem C06_group_results_consumed_in_group_order :
  forall (A : Type) (res : nat -> A) n order,
    Permutation order (seq 0 n) ->
    let m := merge_all res order in consumed m = map res (seq 0 n) /\ parked m = [] /\ next m = n.
Proof.
  intros A res n order Hp. unfold merge_all.
  destruct (merge_fold_inv res order [] {| next := 0; parked := []; consumed := [] |}) as ((I1 & _ & I3) & Hd);
    [repeat split; constructor|intros []|].
  set (m := fold_left (complete res) order _) in *.
  rewrite app_nil_r, <- Permutation_rev, Hp in I3.
  (* the groups 0..n-1 are, as a multiset, the groups consumed and those still parked, so next m <= n; and next m,
     which is not parked, would be among them if it were below n *)
  pose proof (Permutation_length I3) as Hlen. rewrite app_length, !seq_length, map_length in Hlen.
  assert (Hnext : next m = n).
  { destruct (Nat.eq_dec (next m) n) as [Heq|Hne]; [exact Heq|exfalso].
    assert (H : In (next m) (seq 0 n)) by (apply in_seq; lia).
    apply (Permutation_in _ I3), in_app_or in H. destruct H as [H|H]; [apply in_seq in H; lia|exact (Hd H)]. }
  split; [rewrite I1, Hnext; reflexivity|]. split; [|exact Hnext]. apply length_zero_iff_nil. lia.
Qed.
Print Assumptions C06_group_results_consumed_in_group_order.

(* (4) the regions tile the file: the bytes written do not depend on what the file held before (same length), and
   the length is unchanged *)
Theorem C06_output_independent_of_previous_contents :
  forall rs prior1 prior2,
    total rs = length prior1 -> total rs = length prior2 ->
    write_regions rs prior1 = write_regions rs prior2 /\ length (write_regions rs prior1) = total rs.
Proof.
  intros rs b1 b2 H1 H2. rewrite !write_regions_tiling by assumption. split; [reflexivity|apply contents_length].
Qed.
Print Assumptions C06_output_independent_of_previous_contents.

(* any function of the output bytes — the fast build ID is one — inherits the determinism *)
Theorem C06_build_id_is_a_function_of_the_bytes :
  forall (H : list Z -> list Z) rs prior1 prior2,
    total rs = length prior1 -> total rs = length prior2 -> H (write_regions rs prior1) = H (write_regions rs prior2).
Proof. intros H rs b1 b2 H1 H2. f_equal. apply C06_output_independent_of_previous_contents; assumption. Qed.

(* were a padding region left as it was, the old contents would show through *)
Theorem C06_refuted_without_zero_fill :
  let rs := [Data [1; 2]; Pad 2; Data [3]]%Z in
  total rs = 5 /\ write_regions_nofill rs [9; 9; 9; 9; 9]%Z <> write_regions_nofill rs [0; 0; 0; 0; 0]%Z /\
  write_regions rs [9; 9; 9; 9; 9]%Z = [1; 2; 0; 0; 3]%Z.
Proof. split; [reflexivity|]. split; [discriminate|reflexivity]. Qed.
Print Assumptions C06_refuted_without_zero_fill.

Example C06_example_merge : consumed (merge_all (fun g => g * 10) [2; 0; 3; 1]) = [0; 10; 20; 30].
Proof. vm_compute. reflexivity. Qed.
Example C06_example_scatter : scatter (fun i => i * i) 0 4 [3; 1; 0; 2; 1] = [0; 1; 4; 9].
Proof. vm_compute. reflexivity. Qed.
