From Coq Require Import List.
From WV Require Import C03.Model C03.Proofs.
Import ListNotations.

(* whatever order the parallel resolution tasks run in (any pending file may be processed next), when nothing is pending the set of
   loaded files is exactly the least set that contains the non-optional files and is closed under non-weak references to the
   first definition of a name: schedule-independent, and independent of where an archive sits relative to its referrers *)
Theorem C03_loaded_is_lfp : forall files s, wreach files s -> pending s = [] -> forall i, In i (loaded s) <-> InL files i.
Proof. exact loaded_is_lfp. Qed.

(* a file is queued for processing only when it enters the loaded set, hence at most once *)
Theorem C03_pending_are_loaded : forall files s, wreach files s -> forall i, In i (pending s) -> In i (loaded s).
Proof. intros files s Hr. exact (w_pend files s (winv_reach files s Hr)). Qed.

(* the certificate checker used by the correspondence run is sound and complete for the specification *)
Theorem C03_certificate_sound : forall files S, closed_ok files S = true -> derivable_ok files S [] = true ->
  forall i, In i S <-> InL files i.
Proof.
  intros files S H1 H2 i. split; [apply (derivable_sound files S [] ltac:(intros j []) H2)|].
  apply andb_prop in H1. destruct H1 as [Hr Hc]. rewrite forallb_forall in Hr, Hc.
  apply (InL_least files (fun j => In j S)).
  - intros j Hj. apply mem_In, Hr, Hj.
  - intros j f m Hj Hf Hm. specialize (Hc j Hj). rewrite Hf, forallb_forall in Hc. apply mem_In, Hc, Hm.
Qed.

Print Assumptions C03_loaded_is_lfp.
Print Assumptions C03_pending_are_loaded.
Print Assumptions C03_certificate_sound.
