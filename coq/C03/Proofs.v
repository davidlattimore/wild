From Coq Require Import List Bool Arith.
From WV Require Import Base.ListX C03.Model.
Import ListNotations.

Section Proofs.
  Variable files : list file.
  Notation InL := (InL files).
  Notation requests := (requests files).
  Notation roots := (roots files).

  Lemma mem_In x l : mem x l = true <-> In x l.
  Proof. exact (existsb_eqb_In Nat.eqb Nat.eqb_eq x l). Qed.

  (* positions counted from the start k of the numbering, so that no subtraction is needed *)
  Lemma combine_seq_nth {A} (l : list A) : forall k i x,
    In (i, x) (combine (seq k (length l)) l) <-> exists j, i = k + j /\ nth_error l j = Some x.
  Proof.
    induction l as [|a l IH]; intros k i x; cbn [length seq combine In].
    - split; [contradiction|]. intros ([|j] & _ & H); discriminate.
    - split.
      + intros [E|H].
        * injection E as <- <-. exists 0. split; [symmetry; apply Nat.add_0_r|reflexivity].
        * apply IH in H. destruct H as (j & -> & H). exists (S j). split; [apply plus_n_Sm|exact H].
      + intros ([|j] & -> & H).
        * left. injection H as ->. rewrite Nat.add_0_r. reflexivity.
        * right. apply IH. exists j. split; [symmetry; apply plus_n_Sm|exact H].
  Qed.

  Lemma roots_spec i : In i roots <-> exists f, nth_error files i = Some f /\ optional f = false.
  Proof.
    unfold Model.roots. rewrite in_map_iff. split.
    - intros ([j f] & E & H). cbn in E. subst j. apply filter_In in H. destruct H as [H1 H2]. cbn in H2.
      apply combine_seq_nth in H1. destruct H1 as (j & -> & H1).
      exists f. split; [exact H1|]. destruct (optional f); [discriminate|reflexivity].
    - intros (f & H1 & H2). exists (i, f). split; [reflexivity|]. apply filter_In. split.
      + apply combine_seq_nth. exists i. split; [reflexivity|exact H1].
      + cbn. rewrite H2. reflexivity.
  Qed.

  Lemma InL_root i : In i roots -> InL i.
  Proof. intros H. apply roots_spec in H. destruct H as (f & A & B). exact (L_root files i f A B). Qed.

  Lemma InL_least (P : nat -> Prop) :
    (forall i, In i roots -> P i) ->
    (forall i f m, P i -> nth_error files i = Some f -> In m (requests i f) -> P m) ->
    forall i, InL i -> P i.
  Proof. intros Hr Hc. induction 1; [apply Hr, roots_spec|]; eauto. Qed.

  Lemma derivable_sound order : forall seen, (forall j, In j seen -> InL j) -> derivable_ok files order seen = true ->
    forall i, In i order -> InL i.
  Proof.
    induction order as [|a t IH]; intros seen Hs H i Hi; [contradiction|]. cbn [derivable_ok] in H.
    apply andb_prop in H. destruct H as [Ha Ht].
    assert (La : InL a).
    { apply orb_prop in Ha. destruct Ha as [Ha|Ha]; [apply InL_root, mem_In, Ha|].
      apply existsb_exists in Ha. destruct Ha as (j & Hj & Hr).
      destruct (nth_error files j) as [f|] eqn:Ef; [|discriminate]. apply mem_In in Hr.
      exact (L_req files j f a (Hs j Hj) Ef Hr). }
    destruct Hi as [<-|Hi]; [exact La|].
    apply (IH (a :: seen)); [|exact Ht|exact Hi]. intros j [<-|Hj]; [exact La|exact (Hs j Hj)].
  Qed.

  Lemma add_new_loaded ms : forall s x, In x (loaded (add_new ms s)) <-> In x (loaded s) \/ In x ms.
  Proof.
    induction ms as [|m t IH]; intros s x; cbn [add_new In].
    { split; [left; assumption|intros [H|[]]; exact H]. }
    destruct (mem m (loaded s)) eqn:Em; (etransitivity; [apply IH|]); cbn [loaded In].
    - apply mem_In in Em. split; [intros [H|H]|intros [H|[<-|H]]]; auto.
    - split; [intros [[H|H]|H]|intros [H|[H|H]]]; auto.
  Qed.

  Lemma add_new_prefix ms : forall s, exists new,
    loaded (add_new ms s) = new ++ loaded s /\ pending (add_new ms s) = new ++ pending s.
  Proof.
    induction ms as [|m t IH]; intros s; cbn [add_new]; [exists []; split; reflexivity|].
    destruct (mem m (loaded s)); [apply IH|].
    destruct (IH {| loaded := m :: loaded s; pending := m :: pending s |}) as (new & -> & ->).
    exists (new ++ [m]). cbn [loaded pending]. rewrite <- !app_assoc. split; reflexivity.
  Qed.

  Record WInv (s : wstate) : Prop := {
    w_sound : forall i, In i (loaded s) -> InL i;
    w_roots : forall i, In i roots -> In i (loaded s);
    w_pend : forall i, In i (pending s) -> In i (loaded s);
    w_closed : forall i, In i (loaded s) ->
      In i (pending s) \/ forall f m, nth_error files i = Some f -> In m (requests i f) -> In m (loaded s)
  }.

  Lemma winv_init : WInv (winit files).
  Proof. split; cbn [winit loaded pending]; auto using InL_root. Qed.

  Lemma winv_step s s' : WInv s -> wstep files s s' -> WInv s'.
  Proof.
    intros [I1 I2 I3 I4] Hs. destruct Hs as [s i f before after Hp Hf].
    assert (Hi : In i (loaded s)) by (apply I3; rewrite Hp; apply in_elt).
    assert (Rest : forall x, In x (before ++ after) -> In x (loaded s)).
    { intros x Hx. apply I3. rewrite Hp. apply in_app_or in Hx. apply in_or_app.
      destruct Hx as [Hx|Hx]; [left|right; right]; exact Hx. }
    pose proof (add_new_loaded (requests i f) {| loaded := loaded s; pending := before ++ after |}) as AL.
    destruct (add_new_prefix (requests i f) {| loaded := loaded s; pending := before ++ after |}) as (new & EL & EP).
    cbn [loaded pending] in AL, EL, EP.
    split; intros x Hx.
    - apply AL in Hx. destruct Hx as [Hx|Hx]; [apply I1, Hx|exact (L_req files i f x (I1 i Hi) Hf Hx)].
    - apply AL. left. apply I2, Hx.
    - rewrite EP in Hx. rewrite EL. apply in_app_or in Hx. apply in_or_app.
      destruct Hx as [Hx|Hx]; [left; exact Hx|right; apply Rest, Hx].
    - rewrite EL in Hx. rewrite EP. apply in_app_or in Hx. destruct Hx as [Hx|Hx].
      + (* x is new to the loaded set: it has just been queued *)
        left. apply in_or_app. left. exact Hx.
      + destruct (I4 x Hx) as [Hq|Hc].
        * rewrite Hp in Hq. apply in_elt_inv in Hq.
          destruct Hq as [->|Hq]; [|left; apply in_or_app; right; exact Hq].
          (* the file just processed: its requests have just been added *)
          right. intros f' m Hf' Hm. apply AL. right. congruence.
        * right. intros f' m Hf' Hm. apply AL. left. exact (Hc f' m Hf' Hm).
  Qed.

  Theorem winv_reach s : wreach files s -> WInv s.
  Proof. induction 1; [apply winv_init|eapply winv_step; eassumption]. Qed.

  Theorem loaded_is_lfp s : wreach files s -> pending s = [] -> forall i, In i (loaded s) <-> InL i.
  Proof.
    intros Hr Hp i. destruct (winv_reach s Hr) as [I1 I2 _ I4]. split; [apply I1|].
    apply (InL_least (fun j => In j (loaded s))); [exact I2|]. intros j f m Hj. destruct (I4 j Hj) as [Hq|Hc]; [|apply Hc].
    rewrite Hp in Hq. destruct Hq.
  Qed.

  Lemma requests_inv i f m : In m (requests i f) -> exists n, In (n, false) (undefs f) /\ first_def files n = Some m.
  Proof.
    unfold Model.requests. intros Hin. apply in_flat_map in Hin.
    destruct Hin as ([n w] & Hu & Hx). destruct w; [contradiction|]. exists n. split; [exact Hu|].
    destruct (first_def files n) as [m'|]; [|contradiction].
    destruct (Nat.eqb m' i); [contradiction|]. destruct (nth_error files m') as [fm|]; [|contradiction].
    destruct (dynamic f && dynamic fm); [contradiction|]. destruct Hx as [<-|[]]. reflexivity.
  Qed.

  Lemma weak_does_not_request i f n m : In (n, true) (undefs f) ->
    (forall n' w, In (n', w) (undefs f) -> n' = n -> w = true) -> first_def files n = Some m ->
    (forall n' w, In (n', w) (undefs f) -> w = false -> first_def files n' <> Some m) -> ~ In m (requests i f).
  Proof.
    intros _ _ _ Hother Hin. destruct (requests_inv i f m Hin) as (n' & Hu & Hd). exact (Hother n' false Hu eq_refl Hd).
  Qed.
End Proofs.
