(* C36 — stack and GNU property notes are merged as in GNU ld: the property theorems.
   Model: C36/Model.v (wild: merge_gnu_property_notes as one pass over all properties with a map + final filter,
   get_property_class, validate_stack_section, PF_X iff -z execstack; specification: per-type AND / OR / OR_AND with
   GNU ld's drop rules, and GNU ld's stack rule). *)
From Coq Require Import NArith List Bool.
From WV Require Import C36.Model C36.Proofs.
Import ListNotations.
Open Scope N_scope.

(* For every set of inputs (any number, with or without a note, any property types and values, one property per type
   and file) and every -z x86-64-vN: wild's note is exactly the one GNU ld writes — AND of the AND-class bits over all
   inputs (dropped unless every input has the type and a bit survives), OR of the OR-class bits (dropped if zero),
   OR of the "used" bits (dropped unless every input has the type), in type order; or the link is rejected because
   some property type has no class.  Excluded (known_findings.json): a single input object carrying a zero-valued
   generic UINT32_AND / UINT32_OR entry, which GNU ld copies unmerged; and gnu_note is GNU ld's note only where
   unmerged_irregular is false (Model.v), so that hypothesis delimits the claim although the proof does not use it. *)
Theorem C36_property_note_is_the_specified_merge :
  forall files isa, well_formed files -> unmerged_irregular files = false -> unmerged_zero files = [] ->
    wild_merge files isa =
      if forallb (fun p => match class_of (fst p) with Some _ => true | None => false end) (concat files)
      then Some (gnu_note files isa) else None.
Proof. intros files isa Hwf _ Hz. rewrite (wild_is_spec files isa Hwf). unfold gnu_note. rewrite Hz. reflexivity. Qed.
Print Assumptions C36_property_note_is_the_specified_merge.

(* the bits themselves (every entry that carries a bit) are the specified merge for every input, the excluded one too *)
Theorem C36_property_bits_are_the_specified_merge :
  forall files isa, well_formed files ->
    wild_merge files isa =
      if forallb (fun p => match class_of (fst p) with Some _ => true | None => false end) (concat files)
      then Some (spec_merge files isa) else None.
Proof. exact wild_is_spec. Qed.
Print Assumptions C36_property_bits_are_the_specified_merge.

Theorem C36_refuted_single_input_zero_generic_entry :
  wild_merge [[(3221225474, 3); (2952790017, 0)]] 0 = Some [(3221225474, 3)] /\
  gnu_note [[(3221225474, 3); (2952790017, 0)]] 0 = [(2952790017, 0); (3221225474, 3)].
Proof. vm_compute. split; reflexivity. Qed.
Print Assumptions C36_refuted_single_input_zero_generic_entry.

(* Every accepted link: PT_GNU_STACK is executable exactly when GNU ld's would be — provided the stack notes are not
   PARTLY missing without a -z flag (GNU ld then defaults to an executable stack; known_findings.json). *)
Theorem C36_stack_executable_iff_gnu_ld :
  forall notes z b, wild_stack notes z = Some b ->
    (z = ZNone -> some_missing notes && some_present notes = false) ->
    b = gnu_stack notes z.
Proof.
  intros notes z b H Hm. unfold wild_stack in H. unfold gnu_stack.
  set (asked := existsb (fun n => match n with Some true => true | _ => false end) notes) in *.
  destruct z; cbn [negb] in H.
  - (* no -z flag: wild accepts only if no note asks for an executable stack, and GNU ld then goes by partly missing notes *)
    destruct asked; [discriminate|]. injection H as <-.
    (* what is left of gnu_stack is Hm's test with some_missing and some_present unfolded *)
    symmetry. exact (Hm eq_refl).
  - rewrite andb_false_r in H. injection H as <-. reflexivity.
  - destruct asked; [discriminate|]. injection H as <-. reflexivity.
Qed.
Print Assumptions C36_stack_executable_iff_gnu_ld.

Theorem C36_refuted_partly_missing_stack_notes :
  wild_stack [Some false; None] ZNone = Some false /\ gnu_stack [Some false; None] ZNone = true.
Proof. vm_compute. split; reflexivity. Qed.
Print Assumptions C36_refuted_partly_missing_stack_notes.

(* the merge does not depend on the order of the inputs' AND bits reaching zero (the case a map-entry removal would break) *)
Example C36_and_stays_cleared :
  wild_merge [[(3221225474, 1)]; [(3221225474, 2)]; [(3221225474, 3)]] 0 = Some [] /\
  wild_merge [[(3221225474, 3)]; [(3221225474, 1)]; [(3221225474, 3)]] 0 = Some [(3221225474, 1)].
Proof. vm_compute. split; reflexivity. Qed.

Example C36_hypotheses_satisfiable :
  well_formed [[(3221225474, 3); (3221258242, 1)]; [(3221225474, 1)]] /\
  unmerged_zero [[(3221225474, 3); (3221258242, 1)]; [(3221225474, 1)]] = [] /\
  unmerged_irregular [[(3221225474, 3); (3221258242, 1)]; [(3221225474, 1)]] = false /\
  gnu_note [[(3221225474, 3); (3221258242, 1)]; [(3221225474, 1)]] 2 = [(3221225474, 1); (3221258242, 3)].
Proof.
  split; [|vm_compute; repeat split].
  intros f [<-|[<-|[]]]; repeat constructor; cbn; intuition discriminate.
Qed.
