(* C36 — for each property type, wild's single pass over the properties of all files is the specification's fold
   over the files (fold_files); the ISA bit, the filter and the order of the types are the same on both sides. *)
From Coq Require Import NArith List Bool.
From WV Require Import C36.Model.
Open Scope N_scope.

(* the specification's step for one property type of class c: sval c files t = fold_left (spec_step c t) files None *)
Definition spec_step (c : pclass) (t : N) (acc : option N) (f : file) : option N :=
  match lookup f t with
  | None => acc
  | Some d => match acc with None => Some d | Some v => Some (op c v d) end
  end.

Lemma wstep_other m p k : k <> fst p -> wstep m p k = m k.
Proof. destruct p as [t d]. intros H. unfold wstep. destruct (N.eqb_spec k t); [contradiction|reflexivity]. Qed.
Lemma wstep_same c m t d : class_of t = Some c ->
  wstep m (t, d) t = match m t with None => Some d | Some v => Some (op c v d) end.
Proof. intros Hc. unfold wstep. rewrite N.eqb_refl, Hc. destruct (m t), c; reflexivity. Qed.

Lemma lookup_cons p f t : lookup (p :: f) t = if fst p =? t then Some (snd p) else lookup f t.
Proof. unfold lookup. cbn [find]. destruct (fst p =? t); reflexivity. Qed.

Lemma lookup_none_notin f t : ~ In t (map fst f) -> lookup f t = None.
Proof.
  induction f as [|p f IH]; intros H; [reflexivity|]. rewrite lookup_cons.
  destruct (N.eqb_spec (fst p) t) as [E|E]; [exfalso; apply H; left; exact E|].
  apply IH. intros Hin. apply H. right. exact Hin.
Qed.

Lemma fold_file c t f : class_of t = Some c -> NoDup (map fst f) -> forall m,
  fold_left wstep f m t = spec_step c t (m t) f.
Proof.
  intros Hc. unfold spec_step. induction f as [|p f IH]; intros Hnd m; [reflexivity|].
  cbn [fold_left map] in *. inversion Hnd as [|? ? Hnin Hnd']; subst.
  rewrite (IH Hnd'), lookup_cons.
  destruct (N.eqb_spec (fst p) t) as [E|E].
  - subst t. rewrite (lookup_none_notin f (fst p) Hnin). destruct p as [t d]. apply wstep_same, Hc.
  - rewrite wstep_other by (intros H; apply E; symmetry; exact H). reflexivity.
Qed.

Lemma fold_files c t files : class_of t = Some c -> (forall f, In f files -> NoDup (map fst f)) -> forall m,
  fold_left wstep (concat files) m t = fold_left (spec_step c t) files (m t).
Proof.
  intros Hc. induction files as [|f r IH]; intros Hwf m; [reflexivity|].
  cbn [concat fold_left]. rewrite fold_left_app.
  rewrite IH by (intros g Hg; apply Hwf; right; exact Hg).
  f_equal. apply fold_file; [exact Hc|]. apply Hwf. left. reflexivity.
Qed.

Theorem wild_is_spec files isa :
  well_formed files ->
  wild_merge files isa =
    if forallb (fun p => match class_of (fst p) with Some _ => true | None => false end) (concat files)
    then Some (spec_merge files isa) else None.
Proof.
  intros Hwf. unfold wild_merge.
  destruct (forallb (fun p => match class_of (fst p) with Some _ => true | None => false end) (concat files)); [|reflexivity].
  f_equal.
  apply flat_map_ext. intros t.
  destruct (class_of t) as [c|] eqn:Hc.
  - change (sval c files t) with (fold_left (spec_step c t) files None).
    destruct (isa =? 0) eqn:Ei; cbn [negb andb].
    + rewrite andb_false_r, (fold_files c t files Hc Hwf). reflexivity.
    + rewrite andb_true_r. destruct (N.eqb_spec t ISA_NEEDED) as [->|Hne].
      * rewrite !(fold_files c _ files Hc Hwf). reflexivity.
      * rewrite (fold_files c t files Hc Hwf). reflexivity.
  - (* a type without a class is dropped on both sides, whatever wild's map holds for it *)
    destruct (isa =? 0); [destruct (fold_left wstep (concat files) (fun _ => None) t); reflexivity|].
    destruct (t =? ISA_NEEDED); [reflexivity|]. destruct (fold_left wstep (concat files) (fun _ => None) t); reflexivity.
Qed.

Definition some_missing (notes : list (option bool)) : bool := existsb (fun n => match n with None => true | _ => false end) notes.
Definition some_present (notes : list (option bool)) : bool := existsb (fun n => match n with Some _ => true | _ => false end) notes.
