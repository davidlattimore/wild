From Coq Require Import NArith Lia.
From WV Require Import C29.Model.
Open Scope N_scope.

(* Numbers with the same residue lie at least [a] apart.  Every minimality and maximality clause
   below, and the wrap to zero, is this fact. *)
Lemma cong_spaced a x y : a <> 0 -> x mod a = y mod a -> x < y + a -> x <= y.
Proof.
  intros Ha E. rewrite (N.div_mod x a Ha), (N.div_mod y a Ha), E.
  (* quotients and residues become variables: lia does not know that a residue on N is not negative *)
  generalize (y mod a) (x / a) (y / a). intros r p q H.
  destruct (N.le_gt_cases p q) as [L|L].
  - apply (N.mul_le_mono_l _ _ a) in L. lia.
  - apply N.le_succ_l, (N.mul_le_mono_l _ _ a) in L. lia.
Qed.

Lemma next_multiple a v : a <> 0 ->
  let u := if v mod a =? 0 then v else v + (a - v mod a) in u mod a = 0 /\ v <= u < v + a.
Proof.
  intros Ha. destruct (N.eqb_spec (v mod a) 0) as [Hr|Hr]; [split; [assumption|lia]|].
  revert Hr. generalize (N.mod_lt v a Ha) (N.div_mod v a Ha). generalize (v mod a) (v / a).
  intros r q Hlt -> Hr. split; [|lia].
  replace (a * q + r + (a - r)) with ((q + 1) * a) by lia. apply N.mod_mul, Ha.
Qed.

Lemma pow2_nz e : 2 ^ e <> 0.
Proof. apply N.pow_nonzero. discriminate. Qed.

Lemma land_mask e v : N.land v (mask e) = v mod 2 ^ e.
Proof. unfold mask, value. rewrite N.sub_1_r, <- N.ones_equiv. apply N.land_ones. Qed.

Lemma align_down_eq e v : align_down e v = 2 ^ e * (v / 2 ^ e).
Proof.
  unfold align_down, mask, value. rewrite N.sub_1_r, <- N.ones_equiv, N.ldiff_ones_r.
  rewrite N.shiftr_div_pow2, N.shiftl_mul_pow2. apply N.mul_comm.
Qed.

Lemma chk_some x r : chk x = Some r <-> (x = r /\ r < W).
Proof.
  unfold chk. destruct (N.ltb_spec x W); split.
  - intros [= <-]. auto.
  - intros [-> _]. reflexivity.
  - discriminate.
  - lia.
Qed.

Lemma chk_none x : chk x = None <-> W <= x.
Proof. unfold chk. destruct (N.ltb_spec x W); split; try discriminate; try lia; auto. Qed.

Lemma align_up_math_spec e v :
  align_up_math e v mod 2 ^ e = 0 /\ v <= align_up_math e v < v + 2 ^ e.
Proof. exact (next_multiple (2 ^ e) v (pow2_nz e)). Qed.

Definition is_align_up (a v u : N) : Prop :=
  u mod a = 0 /\ v <= u /\ forall m, m mod a = 0 -> v <= m -> u <= m.
Definition is_align_down (a v d : N) : Prop :=
  d mod a = 0 /\ d <= v /\ forall m, m mod a = 0 -> m <= v -> m <= d.
Definition is_align_modulo (a ref_ off r : N) : Prop :=
  forall u, is_align_up a off u ->
    u <= r /\ r mod a = ref_ mod a /\ forall m, u <= m -> m mod a = ref_ mod a -> r <= m.

Lemma is_align_up_unique a v u1 u2 : is_align_up a v u1 -> is_align_up a v u2 -> u1 = u2.
Proof.
  intros (A1 & B1 & C1) (A2 & B2 & C2).
  apply N.le_antisymm; [apply C1|apply C2]; assumption.
Qed.

Lemma align_up_math_is e v : is_align_up (2 ^ e) v (align_up_math e v).
Proof.
  destruct (align_up_math_spec e v) as (H0 & Hw). split; [assumption|]. split; [apply Hw|].
  intros m Hm Hv. apply (cong_spaced (2 ^ e)); [apply pow2_nz|congruence|lia].
Qed.

Lemma align_down_is e v : is_align_down (2 ^ e) v (align_down e v).
Proof.
  rewrite align_down_eq. pose proof (pow2_nz e) as Ha.
  assert (H0 : (2 ^ e * (v / 2 ^ e)) mod 2 ^ e = 0) by (rewrite N.mul_comm; apply N.mod_mul, Ha).
  split; [assumption|]. split; [apply N.mul_div_le, Ha|]. intros m Hm Hv.
  apply (cong_spaced (2 ^ e)); [assumption|congruence|].
  rewrite <- N.mul_succ_r. eapply N.le_lt_trans; [eassumption|apply N.mul_succ_div_gt, Ha].
Qed.

Lemma align_up_reject_wraps_to_zero e v :
  e <= 64 -> v < W -> align_up_dbg e v = None -> align_up_rel e v = 0.
Proof.
  intros He Hv H. unfold align_up_dbg in H. apply chk_none in H. unfold align_up_rel.
  destruct (align_up_math_spec e v) as (H0 & Hw).
  (* both W and the result are multiples of 2^e, and W <= result < W + 2^e *)
  assert (HW : W mod 2 ^ e = 0).
  { unfold W. replace 64 with ((64 - e) + e) by lia. rewrite N.pow_add_r. apply N.mod_mul, pow2_nz. }
  replace (align_up_math e v) with W; [reflexivity|]. apply N.le_antisymm; [assumption|].
  apply (cong_spaced (2 ^ e)); [apply pow2_nz|congruence|lia].
Qed.

Lemma align_modulo_second_branch_dead e ref_ off1 :
  off1 mod value e = 0 -> align_modulo_second_branch e ref_ off1 = false.
Proof.
  unfold align_modulo_second_branch, value. intros H0. rewrite !land_mask, H0.
  generalize (ref_ mod 2 ^ e). intros rm.
  destruct (N.eqb_spec 0 rm); [reflexivity|].
  destruct (N.ltb_spec (2 ^ e) (rm + 2 ^ e - 0)); [reflexivity|lia].
Qed.

Lemma align_modulo_body_spec e ref_ off1 :
  off1 mod 2 ^ e = 0 -> align_modulo_body e ref_ off1 = off1 + ref_ mod 2 ^ e.
Proof.
  intros H0. unfold align_modulo_body, value. rewrite !land_mask, H0.
  generalize (ref_ mod 2 ^ e). intros rm.
  destruct (N.eqb_spec 0 rm); [lia|].
  destruct (N.ltb_spec (2 ^ e) (rm + 2 ^ e - 0)); lia.
Qed.

Definition modulo_target (e ref_ off : N) : N := align_up_math e off + ref_ mod 2 ^ e.

Lemma align_modulo_dbg_eq e ref_ off :
  align_modulo_dbg e ref_ off = chk (modulo_target e ref_ off).
Proof.
  unfold align_modulo_dbg, align_up_dbg, modulo_target.
  rewrite <- (align_modulo_body_spec e ref_ _ (proj1 (align_up_math_spec e off))).
  unfold chk at 1. destruct (N.ltb_spec (align_up_math e off) W); [reflexivity|].
  symmetry. apply chk_none. rewrite align_modulo_body_spec by apply align_up_math_spec.
  eapply N.le_trans; [eassumption|apply N.le_add_r].
Qed.

(* the aligned offset is not above the target, so neither reduction modulo W does anything *)
Lemma align_modulo_rel_eq e ref_ off :
  modulo_target e ref_ off < W -> align_modulo_rel e ref_ off = modulo_target e ref_ off.
Proof.
  unfold modulo_target, align_modulo_rel, align_up_rel. intros Hlt.
  rewrite (N.mod_small (align_up_math e off)) by (eapply N.le_lt_trans; [apply N.le_add_r|exact Hlt]).
  rewrite align_modulo_body_spec by apply align_up_math_spec. apply N.mod_small, Hlt.
Qed.

Lemma modulo_target_is e ref_ off : is_align_modulo (2 ^ e) ref_ off (modulo_target e ref_ off).
Proof.
  intros u Hu. rewrite (is_align_up_unique _ _ _ _ Hu (align_up_math_is e off)).
  unfold modulo_target. pose proof (pow2_nz e) as Ha.
  assert (E : (align_up_math e off + ref_ mod 2 ^ e) mod 2 ^ e = ref_ mod 2 ^ e).
  { rewrite N.add_mod, (proj1 (align_up_math_spec e off)), N.add_0_l, !N.mod_mod by assumption.
    reflexivity. }
  split; [apply N.le_add_r|]. split; [assumption|]. intros m Hm Hr.
  apply (cong_spaced (2 ^ e)); [assumption|congruence|].
  apply N.add_le_lt_mono; [assumption|apply N.mod_lt, Ha].
Qed.

Lemma is_align_modulo_unique e ref_ off r :
  is_align_modulo (2 ^ e) ref_ off r -> r = modulo_target e ref_ off.
Proof.
  intros Hr. destruct (Hr _ (align_up_math_is e off)) as (A & B & C).
  destruct (modulo_target_is e ref_ off _ (align_up_math_is e off)) as (A' & B' & C').
  apply N.le_antisymm; [apply C|apply C']; assumption.
Qed.
