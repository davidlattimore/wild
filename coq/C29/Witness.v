(* C29 — non-vacuity: the hypotheses of the property theorems are met by concrete inputs
   (the repository's own six test points among them), and the reject class is inhabited. *)
From Coq Require Import NArith.
From WV Require Import C29.Model.
Open Scope N_scope.

Example up_15 : align_up_dbg 4 15 = Some 16. Proof. vm_compute. reflexivity. Qed.
Example up_31 : align_up_dbg 4 31 = Some 32. Proof. vm_compute. reflexivity. Qed.
Example mod_1 : align_modulo_dbg 12 0x123456 0x987456 = Some 0x988456. Proof. vm_compute. reflexivity. Qed.
Example mod_2 : align_modulo_dbg 12 0x123456 0x987000 = Some 0x987456. Proof. vm_compute. reflexivity. Qed.
Example mod_3 : align_modulo_dbg 12 0x2afce 0x42af7e = Some 0x42bfce. Proof. vm_compute. reflexivity. Qed.
Example down_17 : align_down 4 17 = 16. Proof. vm_compute. reflexivity. Qed.
Example new_64k : new 65536 = Some 16. Proof. vm_compute. reflexivity. Qed.
Example new_128k : new 131072 = None. Proof. vm_compute. reflexivity. Qed.
Example new_0 : new 0 = None. Proof. vm_compute. reflexivity. Qed.
Example new_3 : new 3 = None. Proof. vm_compute. reflexivity. Qed.
Example up_overflow : align_up_dbg 4 (W - 1) = None /\ align_up_rel 4 (W - 1) = 0.
Proof. vm_compute. split; reflexivity. Qed.
Example mod_overflow : align_modulo_dbg 12 5 (W - 100) = None.
Proof. vm_compute. reflexivity. Qed.
