From Coq Require Import NArith.
From WV Require Import C29.Model C29.Proofs.
Open Scope N_scope.

(* aligning up.  The answer is the smallest multiple of the alignment not below the value (first theorem);
   the only inputs the code does not answer (debug panic; the release build wraps to 0,
   Proofs.align_up_reject_wraps_to_zero) are those with no 64-bit answer (second theorem) *)
Theorem C29_align_up_exact : forall e v r, align_up_dbg e v = Some r ->
  r < W /\ is_align_up (2 ^ e) v r /\ align_up_rel e v = r.
Proof.
  intros e v r H. unfold align_up_dbg, align_up_rel in *. apply chk_some in H. destruct H as [<- Hlt].
  split; [assumption|]. split; [apply align_up_math_is|apply N.mod_small, Hlt].
Qed.
Theorem C29_align_up_rejects_only_unrepresentable : forall e v,
  align_up_dbg e v = None <-> (forall u, is_align_up (2 ^ e) v u -> W <= u).
Proof.
  intros e v. unfold align_up_dbg. rewrite chk_none. split.
  - intros H u Hu. rewrite (is_align_up_unique _ _ _ _ Hu (align_up_math_is e v)). assumption.
  - intros H. apply H, align_up_math_is.
Qed.

Theorem C29_align_down_exact : forall e v, v < W ->
  align_down e v < W /\ is_align_down (2 ^ e) v (align_down e v).
Proof.
  intros e v H. split; [|apply align_down_is].
  destruct (align_down_is e v) as (_ & B & _). eapply N.le_lt_trans; eassumption.
Qed.

Theorem C29_align_modulo_exact : forall e ref_ off r, align_modulo_dbg e ref_ off = Some r ->
  r < W /\ is_align_modulo (2 ^ e) ref_ off r /\ align_modulo_rel e ref_ off = r.
Proof.
  intros e ref_ off r H. rewrite align_modulo_dbg_eq in H. apply chk_some in H. destruct H as [<- Hlt].
  split; [assumption|]. split; [apply modulo_target_is|apply align_modulo_rel_eq, Hlt].
Qed.
Theorem C29_align_modulo_rejects_only_unrepresentable : forall e ref_ off,
  align_modulo_dbg e ref_ off = None <-> (forall r, is_align_modulo (2 ^ e) ref_ off r -> W <= r).
Proof.
  intros e ref_ off. rewrite align_modulo_dbg_eq, chk_none. split.
  - intros H r Hr. rewrite (is_align_modulo_unique _ _ _ _ Hr). assumption.
  - intros H. apply H, modulo_target_is.
Qed.

Theorem C29_new_accepts_iff : forall raw e, new raw = Some e <-> (e <= 16 /\ raw = 2 ^ e).
Proof.
  intros raw e. unfold new, is_pow2. split.
  - destruct (N.eqb_spec raw (2 ^ N.log2 raw)) as [Hp|]; [|discriminate].
    destruct (N.leb_spec (N.log2 raw) MAX_EXP); [|discriminate].
    intros [= <-]. split; assumption.
  - intros [He ->]. rewrite N.log2_pow2 by apply N.le_0_l. rewrite N.eqb_refl.
    destruct (N.leb_spec e MAX_EXP) as [|Hgt]; [reflexivity|]. apply N.lt_nge in Hgt. contradiction.
Qed.

Check C29_align_up_exact : forall e v r, align_up_dbg e v = Some r ->
  r < W /\ (r mod 2 ^ e = 0 /\ v <= r /\ forall m, m mod 2 ^ e = 0 -> v <= m -> r <= m)
  /\ align_up_rel e v = r.
Check C29_align_down_exact : forall e v, v < W -> align_down e v < W /\
  (align_down e v mod 2 ^ e = 0 /\ align_down e v <= v /\
   forall m, m mod 2 ^ e = 0 -> m <= v -> m <= align_down e v).
Check C29_align_modulo_exact : forall e ref_ off r, align_modulo_dbg e ref_ off = Some r ->
  r < W /\
  (forall u, (u mod 2 ^ e = 0 /\ off <= u /\ forall m, m mod 2 ^ e = 0 -> off <= m -> u <= m) ->
     u <= r /\ r mod 2 ^ e = ref_ mod 2 ^ e /\
     forall m, u <= m -> m mod 2 ^ e = ref_ mod 2 ^ e -> r <= m)
  /\ align_modulo_rel e ref_ off = r.
Check C29_new_accepts_iff : forall raw e, new raw = Some e <-> (e <= 16 /\ raw = 2 ^ e).

Print Assumptions C29_align_up_exact.
Print Assumptions C29_align_up_rejects_only_unrepresentable.
Print Assumptions C29_align_down_exact.
Print Assumptions C29_align_modulo_exact.
Print Assumptions C29_align_modulo_rejects_only_unrepresentable.
Print Assumptions C29_new_accepts_iff.
