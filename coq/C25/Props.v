(* C25 — the dependency file lists exactly the files the link read. *)
From Coq Require Import NArith List.
From WV Require Import C25.Model C25.Proofs.
Import ListNotations.
Open Scope N_scope.

(* the prerequisites are the non-temporary loaded files, each exactly once *)
Theorem C25_prerequisites_are_exactly_the_files_read :
  forall files,
    NoDup (deps_of files) /\
    forall x, In x (deps_of files) <-> exists f, In f files /\ temporary f = false /\ path f = x.
Proof.
  intros files. unfold deps_of. destruct (dedup_acc_spec (map path (filter (fun f => negb (temporary f)) files)) []) as (N1 & S1).
  split; [exact N1|]. intros x. rewrite S1. split.
  - intros (H & _). apply in_map_iff in H. destruct H as (f & <- & Hf). apply filter_In in Hf. destruct Hf as (Hin & Ht).
    exists f. repeat split; auto. destruct (temporary f); [discriminate|reflexivity].
  - intros (f & Hin & Ht & <-). split; [|intros []]. apply in_map. apply filter_In. split; [exact Hin|]. rewrite Ht. reflexivity.
Qed.
Print Assumptions C25_prerequisites_are_exactly_the_files_read.

(* Make reads back the target and every prerequisite, whatever bytes the names contain (spaces, '#', '$', quotes, ...)
   other than a backslash, a newline or a colon *)
Theorem C25_make_reads_back_the_rule :
  forall target files,
    safe target = true -> Forall (fun d => safe d = true) (deps_of files) ->
    read_rule (render target (deps_of files)) = Some (target, deps_of files).
Proof. intros target files. apply read_render. Qed.
Print Assumptions C25_make_reads_back_the_rule.

(* written without escaping, a name with a space is read as two prerequisites *)
Theorem C25_refuted_without_escaping :
  let target := [111] in let dep := [97; 32; 98] in
  read_rule (render_with plain target [dep]) = Some (target, [[97]; [98]]) /\
  read_rule (render target [dep]) = Some (target, [dep]).
Proof. vm_compute. split; reflexivity. Qed.
Print Assumptions C25_refuted_without_escaping.

Example C25_example :
  deps_of [ {| path := [97]; temporary := false |}; {| path := [98]; temporary := true |}; {| path := [97]; temporary := false |}; {| path := [99; 36]; temporary := false |} ]
  = [[97]; [99; 36]].
Proof. vm_compute. reflexivity. Qed.
