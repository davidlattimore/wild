From Coq Require Import NArith List Bool.
From WV Require Import C25.Model.
Import ListNotations.
Open Scope N_scope.

Definition normal (k : list N) (w : list name) (t : option name) : rd := {| md := Normal; cur := k; words := w; target_seen := t |}.

Lemma read_escaped_char c k w t : safe_char c = true ->
  fold_left rstep (if (c =? SP) || (c =? HASH) then [BSL; c] else if c =? DOLLAR then [DOLLAR; DOLLAR] else [c]) (normal k w t)
  = normal (c :: k) w t.
Proof.
  intros Hc. destruct ((c =? SP) || (c =? HASH)) eqn:E1; [|destruct (c =? DOLLAR) eqn:E2].
  - transitivity (rstep {| md := AfterBackslash; cur := k; words := w; target_seen := t |} c); [reflexivity|].
    unfold rstep. cbn [md]. rewrite E1. reflexivity.
  - apply N.eqb_eq in E2. subst c. reflexivity.
  - apply andb_true_iff in Hc. destruct Hc as (Hc & _).
    apply negb_true_iff, orb_false_iff in Hc. destruct Hc as (Hc & Hcol). apply orb_false_iff in Hc. destruct Hc as (Hb & Hn).
    apply orb_false_iff in E1. destruct E1 as (Es & _).
    cbn [fold_left]. unfold rstep. cbn [md normal]. rewrite Hb, E2, Es, Hn, Hcol. reflexivity.
Qed.

Lemma read_escaped : forall n k w t,
  forallb safe_char n = true ->
  fold_left rstep (escape n) (normal k w t) = normal (rev n ++ k) w t.
Proof.
  induction n as [|c r IH]; intros k w t Hs; cbn [escape forallb] in *; [reflexivity|].
  apply andb_true_iff in Hs. destruct Hs as (Hc & Hr).
  rewrite fold_left_app, read_escaped_char, IH by assumption. cbn [rev]. rewrite <- app_assoc. reflexivity.
Qed.

Lemma safe_parts n : safe n = true -> forallb safe_char n = true /\ n <> [].
Proof. intros H. apply andb_true_iff in H. destruct H as (A & B). split; [exact A|]. destruct n; discriminate. Qed.

Lemma push_word_normal k w t : push_word (normal k w t) = normal [] (words (push_word (normal k w t))) t.
Proof. destruct k; reflexivity. Qed.
Lemma push_word_rev n w t : n <> [] -> words (push_word (normal (rev n) w t)) = n :: w.
Proof.
  intros H. unfold push_word. cbn [cur normal]. destruct (rev n) eqn:E; [|rewrite <- E, rev_involutive; reflexivity].
  apply (f_equal (@rev N)) in E. rewrite rev_involutive in E. contradiction.
Qed.

Lemma read_deps : forall deps k w t,
  Forall (fun d => safe d = true) deps ->
  fold_left rstep (flat_map (fun d => SP :: escape d) deps ++ [NL]) (normal k w (Some t)) =
  normal [] (rev deps ++ words (push_word (normal k w (Some t)))) (Some t).
Proof.
  induction deps as [|d r IH]; intros k w t Hs; [apply push_word_normal|].
  inversion Hs as [|? ? Hd Hr]. destruct (safe_parts d Hd) as (Hsafe & Hne).
  cbn [flat_map app fold_left]. change (rstep (normal k w (Some t)) SP) with (push_word (normal k w (Some t))).
  rewrite push_word_normal, <- app_assoc, fold_left_app, read_escaped, app_nil_r, IH, push_word_rev by assumption.
  cbn [rev]. rewrite <- app_assoc. reflexivity.
Qed.

Theorem read_render target deps :
  safe target = true -> Forall (fun d => safe d = true) deps ->
  read_rule (render target deps) = Some (target, deps).
Proof.
  intros Ht Hd. destruct (safe_parts target Ht) as (Hts & _).
  unfold read_rule, render, render_with.
  rewrite fold_left_app, read_escaped, app_nil_r by exact Hts. cbn [app fold_left].
  change (rstep (normal (rev target) [] None) COLON) with (normal [] [] (Some (rev (rev target)))).
  rewrite read_deps by exact Hd. cbn. rewrite app_nil_r, !rev_involutive. reflexivity.
Qed.

Lemma name_eqb_spec a b : name_eqb a b = true <-> a = b.
Proof. unfold name_eqb. destruct (list_eq_dec N.eq_dec a b); split; auto; discriminate. Qed.
Lemma mem_spec x l : mem x l = true <-> In x l.
Proof.
  induction l as [|y r IH]; cbn [mem In]; [split; [discriminate|contradiction]|].
  rewrite orb_true_iff, name_eqb_spec, IH. split; intros [H|H]; auto.
Qed.

Lemma dedup_acc_spec : forall l seen,
  NoDup (dedup_acc seen l) /\ (forall x, In x (dedup_acc seen l) <-> In x l /\ ~ In x seen).
Proof.
  induction l as [|y r IH]; intros seen; cbn [dedup_acc].
  - split; [constructor|]. intros x. cbn. tauto.
  - destruct (IH seen) as (N1 & S1), (IH (y :: seen)) as (N2 & S2).
    destruct (mem y seen) eqn:E; [apply mem_spec in E|apply not_true_iff_false in E; rewrite mem_spec in E].
    + split; [exact N1|]. intros x. rewrite S1. cbn [In]. split; [tauto|]. intros [[->|A] B]; tauto.
    + split; [constructor; [rewrite S2; cbn [In]; tauto|exact N2]|]. intros x. cbn [In]. rewrite S2. cbn [In].
      destruct (list_eq_dec N.eq_dec y x) as [->|Hne]; tauto.
Qed.
