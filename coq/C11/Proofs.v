From Coq Require Import ZArith List Lia.
From WV Require Import C11.Model.
Import ListNotations.
Open Scope Z_scope.

Definition in_reach (range M : Z) (x : entry) : Prop :=
  (e_end x <= e_pos x -> e_pos x - e_start x < range + M) /\
  (e_pos x < e_end x -> e_end x - e_pos x < range).

(* the objects waiting for a block that has not been placed yet *)
Definition pending (m : mode) : list (nat * Z * Z) :=
  match m with Next _ first fs fe ms => (first, fs, fe) :: ms | Prev _ _ _ => [] end.

Definition member (fs hi : Z) (m : nat * Z * Z) : Prop := fs <= snd (fst m) <= snd m /\ snd m <= hi.

Record inv (range M : Z) (s : st) : Prop := {
  i_out : Forall (in_reach range M) (out s);
  i_idx : map e_idx (out s) ++ map (fun x => fst (fst x)) (pending (md s)) = seq 0 (idx s);
  i_mode : match md s with
           | Prev _ _ pos => pos <= cur s
           | Next _ _ fs fe _ => fe - fs <= M /\ cur s - fs < range /\ Forall (member fs (cur s)) (pending (md s))
           end }.

Lemma close_idx bid owner pos ms : map e_idx (close bid owner pos ms) = map (fun x => fst (fst x)) ms.
Proof. unfold close. rewrite map_map. apply map_ext. intros [[j s] e]. reflexivity. Qed.

(* a block at pos serves every object behind fs that ends less than range beyond it, if pos itself is within
   range + M of fs: used with pos = the end of the object the block is placed on, and with pos = the first
   object's end for a block still unplaced when the input ends *)
Lemma close_in_reach range M bid owner pos fs hi ms :
  pos - fs < range + M -> hi - pos < range -> Forall (member fs hi) ms ->
  Forall (in_reach range M) (close bid owner pos ms).
Proof.
  intros H1 H2 Hms. unfold close. apply Forall_map. eapply Forall_impl; [|exact Hms].
  intros [[j sj] ej]. unfold member, in_reach. cbn. lia.
Qed.

Lemma step_inv range M s size :
  0 <= size <= M -> M < range -> inv range M s -> inv range M (step range s size).
Proof.
  intros Hsz HM [Ho Hi Hm]. unfold step.
  destruct (md s) as [bid owner pos|bid first fs fe ms]; cbn [pending map] in Hi.
  - rewrite app_nil_r in Hi. destruct (Z.leb_spec range (cur s + size - pos)).
    + (* out of reach of the block behind: the object opens a new block and is the first to wait for it *)
      constructor; cbn [out idx md cur pending map fst].
      * exact Ho.
      * rewrite seq_S, Hi. reflexivity.
      * repeat split; try lia. repeat constructor; cbn; lia.
    + constructor; cbn [out idx md cur].
      * apply Forall_app. split; [exact Ho|]. repeat constructor; cbn; lia.
      * rewrite map_app, app_nil_r, seq_S, Hi. reflexivity.
      * lia.
  - destruct Hm as (HfM & Hcur & Hms). pose proof (Forall_inv Hms) as [Hf Hfe]. cbn in Hf, Hfe.
    assert (Hms' : Forall (member fs (cur s + size)) (((first, fs, fe) :: ms) ++ [(idx s, cur s, cur s + size)])).
    { apply Forall_app. split; [eapply Forall_impl; [|exact Hms]; unfold member; lia|].
      constructor; [unfold member; cbn; lia|constructor]. }
    destruct (Z.leb_spec range (cur s + size - fs)).
    + (* the block is placed on this object: everything waiting, the object included, is in front of it *)
      constructor; cbn [out idx md cur pending map fst].
      * apply Forall_app. split; [exact Ho|]. apply (close_in_reach _ _ _ _ _ fs (cur s + size)); try lia. exact Hms'.
      * rewrite app_nil_r, map_app, close_idx, seq_S, <- Hi, <- app_assoc. cbn [map app]. rewrite map_app. reflexivity.
      * lia.
    + constructor; cbn [out idx md cur pending map fst].
      * exact Ho.
      * rewrite seq_S, <- Hi, map_app, <- !app_assoc. reflexivity.
      * repeat split; try lia. exact Hms'.
Qed.

Lemma fold_inv range M sizes : forall s,
  Forall (fun z => 0 <= z <= M) sizes -> M < range -> inv range M s -> inv range M (fold_left (step range) sizes s).
Proof.
  induction sizes as [|z r IH]; intros s Hs HM Hi; [exact Hi|]. inversion Hs.
  apply IH; [assumption|assumption|]. apply step_inv; assumption.
Qed.

Lemma fold_idx range sizes : forall s, idx (fold_left (step range) sizes s) = (idx s + length sizes)%nat.
Proof.
  induction sizes as [|z r IH]; intros s; cbn [fold_left length]; [lia|]. rewrite IH.
  unfold step. destruct (md s); destruct (_ <=? _); cbn [idx]; lia.
Qed.

Lemma finish_spec range M s : 0 < range -> inv range M s ->
  Forall (in_reach range M) (finish s) /\ map e_idx (finish s) = seq 0 (idx s).
Proof.
  intros Hr [Ho Hi Hm]. unfold finish. destruct (md s) as [bid owner pos|bid first fs fe ms]; cbn [pending] in Hi.
  - rewrite app_nil_r in Hi. split; assumption.
  - destruct Hm as (HfM & Hcur & Hms). pose proof (Forall_inv Hms) as [Hf _]. cbn in Hf.
    rewrite map_app, close_idx. split; [|exact Hi].
    apply Forall_app. split; [exact Ho|]. eapply (close_in_reach _ _ _ _ _ fs); [| |exact Hms]; lia.
Qed.

Theorem blocks_are_within_reach offset sizes range M :
  Forall (fun z => 0 <= z <= M) sizes -> M < range ->
  Forall (in_reach range M) (snd (assign_thunk_blocks offset sizes range)) /\
  map e_idx (snd (assign_thunk_blocks offset sizes range)) = seq 0 (length sizes).
Proof.
  intros Hs HM. unfold assign_thunk_blocks. destruct sizes as [|z0 rest]; [split; [constructor|reflexivity]|].
  inversion Hs as [|? ? Hz0 Hrest]; subst. cbn [snd].
  set (s := fold_left (step range) rest _).
  replace (length (z0 :: rest)) with (idx s) by apply fold_idx.   (* the fold starts at idx 1 *)
  apply finish_spec; [lia|]. apply fold_inv; [exact Hrest|exact HM|].
  (* the state after the first object, which owns block 0 *)
  constructor; cbn; [repeat constructor; cbn; lia|reflexivity|lia].
Qed.

Lemma in_reach_distance range M bytes x : 0 <= M -> in_reach range M x -> distance bytes x < range + M + bytes.
Proof.
  intros HM0 (H1 & H2). unfold distance. destruct (Z.leb_spec (e_end x) (e_pos x)); [specialize (H1 H)|specialize (H2 H)]; lia.
Qed.
