From Coq Require Import ZArith List Lia.
From WV Require Import C11.Model C11.Proofs.
Import ListNotations.
Open Scope Z_scope.

(* For every list of objects (any number, any sizes up to M, anywhere), with range = branch range - slack and M below
   it: every object is assigned exactly one thunk block (indices 0..n-1, each once, in order), and every byte of the
   object is closer than range + M + bytes to every byte of that block's thunks (bytes = the block's size).  So as long
   as M + bytes <= slack, a range-limited branch anywhere in the object reaches its thunk. *)
Theorem C11_thunk_block_within_reach :
  forall offset sizes range M bytes,
    Forall (fun z => 0 <= z <= M) sizes -> 0 <= M < range -> 0 <= bytes ->
    map e_idx (snd (assign_thunk_blocks offset sizes range)) = seq 0 (length sizes) /\
    Forall (fun x => distance bytes x < range + M + bytes) (snd (assign_thunk_blocks offset sizes range)).
Proof.
  intros offset sizes range M bytes Hs [HM0 HM] _.
  destruct (blocks_are_within_reach offset sizes range M Hs HM) as [Hg Hi]. split; [exact Hi|].
  eapply Forall_impl; [|exact Hg]. intros x Hx. apply in_reach_distance; assumption.
Qed.
Print Assumptions C11_thunk_block_within_reach.

(* the thunk (adrp x16, page; add x16, x16, lo12; br x16) transfers to the target from wherever it sits *)
Theorem C11_thunk_reaches_target :
  forall pc target, 0 <= target -> 0 <= pc ->
    adrp_add pc ((page target - page pc) / 4096) (target mod 4096) = target.
Proof.
  intros pc target _ _. unfold adrp_add, page.
  rewrite <- Z.mul_sub_distr_r, Z.div_mul by lia. pose proof (Z.div_mod target 4096). lia.
Qed.
Print Assumptions C11_thunk_reaches_target.

(* NOT covered: an object larger than the slack (more than 2 MiB of primary text in one object).  When such an object is
   the one a pending block is placed on, the first object waiting for that block ends up further than the branch range
   from it.  In units of MiB: branch range 128, slack 2, range 126; objects 1, 124, 2, then 120 of size 1, then one of
   size 10: the block opened by the third object is placed behind the big one, 132 away from the third object's start. *)
Theorem C11_refuted_for_an_object_larger_than_the_slack :
  let r := assign_thunk_blocks 0 ([1; 124; 2] ++ repeat 1 120%nat ++ [10]) 126 in
  exists x, In x (snd r) /\ e_idx x = 2%nat /\ distance 0 x = 132.
Proof.
  exists {| e_idx := 2; e_start := 125; e_end := 127; e_block := 1; e_owner := 123; e_pos := 257 |}.
  split; [|split; reflexivity]. apply (nth_error_In _ 2). vm_compute. reflexivity.
Qed.
Print Assumptions C11_refuted_for_an_object_larger_than_the_slack.

Example C11_hypotheses_satisfiable :
  let r := assign_thunk_blocks 0 [100; 100; 400; 100; 100; 300] 500 in
  fst r = 2 /\ map e_block (snd r) = [0; 0; 1; 1; 1; 1] /\ Forall (fun x => distance 10 x < 500 + 400 + 10) (snd r).
Proof.
  cbv zeta. set (r := assign_thunk_blocks _ _ _). vm_compute in r. subst r. cbn [fst snd map e_block].
  repeat split. repeat constructor.
Qed.
