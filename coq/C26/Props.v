(* C26 — diagnostics are deterministic. *)
From Coq Require Import ZArith List Sorting.Permutation.
From WV Require Import C26.Model C26.Proofs.
Import ListNotations.
Open Scope Z_scope.

(* Whatever order the work items complete in (any two schedules of the same items are permutations of each other), the
   error wild reports is the same: the least message of the set, and `None` (no error) only if there was none. *)
Theorem C26_reported_error_is_schedule_independent :
  forall (errs : item -> list msg) sched sched',
    Permutation sched sched' ->
    report_sorted_first (arrived errs sched) = report_sorted_first (arrived errs sched') /\
    report_sorted_all (arrived errs sched) = report_sorted_all (arrived errs sched').
Proof.
  intros errs s s' Hp. unfold report_sorted_first, report_sorted_all, arrived.
  rewrite (isort_id_perm_eq _ _ (Permutation_flat_map errs Hp)). split; reflexivity.
Qed.
Print Assumptions C26_reported_error_is_schedule_independent.

Theorem C26_reported_error_is_the_least_message :
  forall l, (forall m, report_sorted_first l = Some m -> In m l /\ forall x, In x l -> m <= x) /\
            (report_sorted_first l = None -> l = []).
Proof.
  intros l. unfold report_sorted_first. pose proof (isort_id_in l) as Hin. pose proof (isort_id_sorted l) as Hs.
  destruct (isort l) as [|y r]; split; try discriminate.
  - intros _. destruct l as [|x t]; [reflexivity|]. destruct (proj2 (Hin x) (or_introl eq_refl)).
  - intros m [= ->]. split; [apply Hin; left; reflexivity|]. intros x Hx. apply Hin in Hx.
    inversion Hs as [|? ? _ Hall]; subst. destruct Hx as [->|Hx]; [apply Z.le_refl|].
    rewrite Forall_forall in Hall. apply Hall, Hx.
Qed.
Print Assumptions C26_reported_error_is_the_least_message.

(* Sites that keep one result per group and look at them in input order do not see the schedule at all. *)
Theorem C26_first_error_in_input_order_is_the_first_failing_item :
  forall (errs : item -> list msg) before i after m rest,
    (forall j, In j before -> errs j = []) -> errs i = m :: rest ->
    report_first_in_input_order errs (before ++ i :: after) = Some m.
Proof.
  intros errs before i after m rest Hb Hi. unfold report_first_in_input_order. rewrite flat_map_app.
  assert (E : flat_map errs before = []).
  { induction before as [|b r IH]; [reflexivity|]. cbn [flat_map]. rewrite (Hb b (or_introl eq_refl)). apply IH. intros j Hj. apply Hb. right; exact Hj. }
  rewrite E. cbn [app flat_map]. rewrite Hi. reflexivity.
Qed.
Print Assumptions C26_first_error_in_input_order_is_the_first_failing_item.

(* The warnings form the same multiset under every schedule (their order on stderr is not part of the property). *)
Theorem C26_warning_set_is_schedule_independent :
  forall (warns : item -> list msg) sched sched',
    Permutation sched sched' ->
    Permutation (warned warns sched) (warned warns sched') /\
    forall w, In w (warned warns sched) <-> In w (warned warns sched').
Proof.
  intros warns s s' Hp. pose proof (Permutation_flat_map warns Hp) as H. split; [exact H|].
  intros w. split; apply Permutation_in; [|symmetry]; exact H.
Qed.
Print Assumptions C26_warning_set_is_schedule_independent.

(* What the code did before — the last error pushed (errors.pop()) or the first to arrive (ArrayQueue(1), rayon's
   try_for_each / collect into Result) — depends on the schedule as soon as two items fail. *)
Theorem C26_refuted_for_arrival_order_reporters :
  let errs := fun i : item => [Z.of_nat i + 10] in
  Permutation [1%nat; 2%nat] [2%nat; 1%nat] /\
  report_last_arrived (arrived errs [1%nat; 2%nat]) <> report_last_arrived (arrived errs [2%nat; 1%nat]) /\
  report_first_arrived (arrived errs [1%nat; 2%nat]) <> report_first_arrived (arrived errs [2%nat; 1%nat]).
Proof. cbn. split; [apply perm_swap|]. split; discriminate. Qed.
Print Assumptions C26_refuted_for_arrival_order_reporters.

Example C26_example :
  report_sorted_first (arrived (fun i => if Nat.eqb i 2 then [] else [Z.of_nat i * 3; 40 - Z.of_nat i]) [3%nat; 1%nat; 2%nat; 0%nat]) = Some 0.
Proof. vm_compute. reflexivity. Qed.
