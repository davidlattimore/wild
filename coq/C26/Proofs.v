From Coq Require Import ZArith List Sorting.Permutation Sorting.Sorted.
From WV Require Import Base.Sorting C26.Model.
Open Scope Z_scope.

(* C26.Model.isort is Base/Sorting.v's isort at the identity key (the two are convertible) *)
Lemma isort_id_in l x : In x (isort l) <-> In x l.
Proof. exact (isort_in (fun x => x) l x). Qed.
Lemma isort_id_sorted l : StronglySorted Z.le (isort l).
Proof. exact (isort_sorted (fun x => x) l). Qed.
Lemma isort_id_perm_eq l l' : Permutation l l' -> isort l = isort l'.
Proof. apply (isort_perm_eq (fun x => x)). auto. Qed.
