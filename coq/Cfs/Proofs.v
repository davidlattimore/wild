From Coq Require Import NArith Bool.
From WV Require Import Cfs.Model.
Open Scope N_scope.

Lemma path_eqb_eq a b : path_eqb a b = true <-> a = b.
Proof.
  destruct a, b; cbn [path_eqb]; rewrite ?N.eqb_eq; split; intros H; try discriminate H; congruence.
Qed.
Lemma path_eqb_neq a b : a <> b -> path_eqb a b = false.
Proof. intros H. apply not_true_is_false. rewrite path_eqb_eq. exact H. Qed.

Lemma create_output_cases c m s s' : create_output c m s = Some s' ->
  (exists s1 x, (s1 = s \/ s1 = unlink s Out) /\ s' = new_file s1 Out x) \/
  (exists i x, names s Out = Some i /\ s' = set_data s i x).
Proof.
  unfold create_output. destruct (names s Out) as [i|] eqn:E.
  2:{ intros [= <-]. left. eauto. }
  destruct (busy c).
  - destruct m; try discriminate. destruct (dir_writable c); [|discriminate]. intros [= <-]. left. eauto.
  - destruct m; intros [= <-]; right; eauto.
Qed.

Section Link.
  Variables (c : cfg) (s0 : fs).
  Notation m := (mode_of c s0).

  (* [link] is a straight line: set_size from s0, the start of the write from there, the write, and at any stop
     the cleanup.  [I] is what holds up to the start of the write phase, [J] from there on. *)
  Lemma link_inv (I J : fs -> Prop) :
    I s0 ->
    (forall s1, on_set_size c m s0 = Some s1 -> I s1) ->
    (forall s1 s2, on_set_size c m s0 = Some s1 -> I s1 -> on_write_start c m s1 = Some s2 -> J s2) ->
    (forall s b, J s -> J (fill s b)) ->
    (forall s, J s -> I s) ->
    (forall s, I s -> I (unlink_w (dir_writable c) s Out)) ->
    I (fst (link c s0)).
  Proof.
    intros H0 H1 H2 Hfill HJ Hun.
    assert (Hfail : forall st s, I s -> I (if crash c then s else cleanup (dir_writable c) st s))
      by (intros [] s Hs; destruct (crash c); cbn [cleanup]; auto).
    unfold link. destruct (on_set_size c m s0) as [s1|] eqn:E1.
    - specialize (H1 s1 eq_refl). destruct (on_write_start c m s1) as [s2|] eqn:E2.
      + specialize (H2 s1 s2 eq_refl H1 E2). destruct (stop_at c); cbn [fst]; auto.
      + destruct (stop_at c); cbn [fst]; auto.
    - destruct (stop_at c); cbn [fst]; auto.
  Qed.

  Lemma link_success :
    snd (link c s0) = true ->
    exists s1 s2, on_set_size c m s0 = Some s1 /\ on_write_start c m s1 = Some s2 /\ fst (link c s0) = fill s2 true.
  Proof.
    unfold link. destruct (stop_at c); try discriminate.
    all: destruct (on_set_size c m s0) as [s1|]; try discriminate.
    all: destruct (on_write_start c m s1) as [s2|] eqn:E2; try discriminate.
    intros _. exists s1, s2. auto.
  Qed.

  (* The first case is a stop before anything was started on the output: Early, or around set_size on the main
     thread, where set_size does nothing. *)
  Lemma link_failure :
    crash c = false -> snd (link c s0) = false ->
    fst (link c s0) = s0 \/ exists s, fst (link c s0) = unlink_w (dir_writable c) s Out.
  Proof.
    intros Hc. unfold link. rewrite Hc.
    assert (Before : forall s1, (background c = false -> s1 = s0) ->
              cleanup (dir_writable c) (background c) s1 = s0 \/
              exists s, cleanup (dir_writable c) (background c) s1 = unlink_w (dir_writable c) s Out).
    { intros s1 H. destruct (background c); [right; exists s1; reflexivity|left; apply H; reflexivity]. }
    destruct (stop_at c); [left; reflexivity|..]; intros Hf; cbn [fst].
    all: destruct (on_set_size c m s0) as [s1|] eqn:E1; [|apply Before; reflexivity].
    - apply Before. intros Hb. unfold on_set_size in E1. rewrite Hb in E1. congruence.
    - right. destruct (on_write_start c m s1); eexists; reflexivity.
    - right. destruct (on_write_start c m s1); eexists; reflexivity.
    - (* Success, but the start of the write failed *)
      right. destruct (on_write_start c m s1); [discriminate|]. eexists. reflexivity.
  Qed.
End Link.
