(* C22 (and C32's parser) — the version-script and export-list parsers: property theorems.
   Model: C22/VScript.v (parse_version_script / parse_version_section / parse_matcher / parse_export_list /
   skip_comments_and_whitespace, every loop a fuelled recursion). *)
From Coq Require Import NArith List.
From WV Require Import C15.Model C22.VScript C22.VScriptProofs C22.VRound C22.VRoundExport.
Import ListNotations.
Open Scope N_scope.

(* For EVERY byte string and every behaviour of the glob crate: parsing a version script ends, with a parsed script or
   an error, within (length of the input + 1) iterations of each loop — no loop of the parser can go round without
   consuming a byte.  (Fuel is the model's "still running".) *)
Theorem C22_version_script_parser_terminates :
  forall glob_ok input, parse_version_script glob_ok input <> Fuel.
Proof. exact parse_version_script_terminates. Qed.
Print Assumptions C22_version_script_parser_terminates.

Theorem C22_export_list_parser_terminates :
  forall glob_ok input, parse_export_list glob_ok input <> Fuel.
Proof. exact parse_export_list_terminates. Qed.
Print Assumptions C22_export_list_parser_terminates.

(* every step of the two parsers consumes input: what is left after a pattern is strictly shorter than what was there *)
Theorem C22_a_pattern_consumes_input :
  forall glob_ok s m r, parse_matcher glob_ok s false = Ok (m, r) -> (length r < length s)%nat.
Proof.
  intros glob_ok s m r H. destruct (parse_matcher_ok glob_ok s false) as [_ H2]. destruct (H2 m r H) as [_ Hlt].
  apply Hlt. intros ->. discriminate H.
Qed.
Print Assumptions C22_a_pattern_consumes_input.

(* the pinned tree is refuted: in an `extern` block that is never closed, at the end of the input the pattern parser
   took "everything that is left" — nothing — and the loop went round again: no amount of fuel ends it (repaired) *)
Theorem C22_refuted_pinned_extern_loop :
  forall glob_ok fuel, extern_loop_pinned glob_ok fuel [] = Fuel.
Proof.
  intros glob_ok fuel. induction fuel as [|f IH]; [reflexivity|].
  cbn. exact IH.
Qed.
Print Assumptions C22_refuted_pinned_extern_loop.

(* the parsers are not trivially always an error *)
Example C22_scripts_parse :
  let any := fun _ : list N => true in
  (* { global: foo; local: *; }; *)
  parse_version_script any [123; 32; 103; 108; 111; 98; 97; 108; 58; 32; 102; 111; 111; 59; 32; 108; 111; 99; 97; 108; 58; 32; 42; 59; 32; 125; 59]
    = Ok (Simple {| globals := [Single (MExact [102; 111; 111])]; locals := [Single MAll] |}) /\
  (* { a; b }  — no "};" : error *)
  parse_export_list any [123; 32; 97; 59; 32; 98; 32; 125] = Err /\
  (* { a; }; *)
  parse_export_list any [123; 32; 97; 59; 32; 125; 59] = Ok [Single (MExact [97])].
Proof. vm_compute. repeat split. Qed.

(* Printing and parsing back.  For every structured version script — any number of versions with distinct names over
   letters, digits, '_' and '.', each optionally depending on an earlier one, with any global and local patterns over
   the same bytes plus '*' and '?' (no "**", which the glob crate rejects) — the parser returns exactly the structure the
   text was printed from: each name, each parent as an index, each pattern classified as exact / glob with '*' / glob
   without '*' / match-all, in order.  (print_script writes no white space; scripts with white space and comments are
   covered by the correspondence runs.) *)
Theorem C22_version_script_round_trip :
  forall glob_ok, (forall p, forallb pat_byte p = true -> nodstar p = true -> glob_ok p = true) ->
  forall vs, wf_versions [] vs ->
    parse_version_script glob_ok (print_script vs) = Ok (Versions (map to_version vs)).
Proof.
  intros glob_ok glob_ok_pat vs Hwf. unfold parse_version_script.
  rewrite (skip_cw_tail _ _ (print_versions_tail _ _ Hwf)).
  replace (starts [LBRACE] (print_versions [] vs)) with false.
  - apply (gives_at (vers glob_ok [[]] [])). exact (versions_round glob_ok glob_ok_pat vs [] [] Hwf (NoDup_nil _) (Forall_nil _)).
  - destruct vs as [|v vs]; [reflexivity|]. destruct Hwf as [[Hne Hnb] _]. cbn [print_versions]. unfold print_version.
    destruct (sname v) as [|c n]; [contradiction|]. cbn [forallb] in Hnb. apply andb_prop in Hnb. cbn [app starts].
    rewrite N.eqb_sym, (pat_neq LBRACE c eq_refl (name_byte_pat c (proj1 Hnb))). reflexivity.
Qed.
Print Assumptions C22_version_script_round_trip.

(* ... and for export lists (--dynamic-list): "{" patterns "};" *)
Theorem C22_export_list_round_trip :
  forall glob_ok, (forall p, forallb pat_byte p = true -> nodstar p = true -> glob_ok p = true) ->
  forall ps, Forall good ps -> parse_export_list glob_ok (print_export ps) = Ok (singles ps).
Proof.
  intros glob_ok glob_ok_pat ps Hg. apply (parse_export_brace glob_ok).
  apply (pats_loop (expl glob_ok) CLOSE (expl_pat glob_ok glob_ok_pat) ps [] _ Hg).
  apply gives_end. intros f. apply expl_close.
Qed.
Print Assumptions C22_export_list_round_trip.
