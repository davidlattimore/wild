(* C22 — `@file` arguments: property theorems.  Model: C22/RspFiles.v (handle_argument's recursive expansion with its
   bound of 100 levels; the file system is an arbitrary function). *)
From Coq Require Import NArith List.
From WV Require Import C22.RspFiles.
Import ListNotations.
Open Scope N_scope.

(* whatever the files contain — also when they name each other in a cycle — the expansion is a total function: it ends
   with the expanded arguments, with "nested too deeply" or with "cannot read".  In particular a file that names itself
   is reported, at every bound. *)
Theorem C22_self_including_argument_file_is_reported :
  forall fs f, fs f = Some [At f] -> expand_args fs [At f] = XTooDeep.
Proof. intros fs f H. exact (self_inclusion_is_reported fs f H MAX). Qed.
Print Assumptions C22_self_including_argument_file_is_reported.

(* the pinned tree had no bound: for such a file no number of steps ends the expansion (repaired in /repo) *)
Theorem C22_refuted_unbounded_expansion :
  forall fs f, fs f = Some [At f] -> forall fuel, expand_unbounded fs fuel [At f] = UFuel.
Proof.
  intros fs f H fuel. pose proof (self_inclusion_is_reported fs f H fuel) as E. rewrite expand_unbounded_view in E.
  destruct (expand_unbounded fs fuel [At f]); [discriminate E|discriminate E|reflexivity].
Qed.
Print Assumptions C22_refuted_unbounded_expansion.

(* ... and the bound changes nothing for argument lists that do not reach it *)
Theorem C22_bound_is_invisible_below_it :
  forall fs args l, expand_unbounded fs MAX args = UOk l -> expand_args fs args = XOk l.
Proof. intros fs args l H. unfold expand_args. rewrite expand_unbounded_view, H. reflexivity. Qed.
Print Assumptions C22_bound_is_invisible_below_it.

Example C22_expansion_example :
  let fs := fun f => match f with 1 => Some [Plain 10; At 2; Plain 11] | 2 => Some [Plain 20] | _ => None end in
  expand_args fs [Plain 1; At 1; At 2] = XOk [1; 10; 20; 11; 20] /\ expand_args fs [At 3] = XMissing.
Proof. vm_compute. split; reflexivity. Qed.
