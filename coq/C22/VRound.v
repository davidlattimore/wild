(* C22 / C32 — printing a structured version script and parsing it back.  The printed form uses no white space at all;
   names and patterns are over letters, digits, '_' and '.', patterns may also contain '*' and '?'. *)
From Coq Require Import NArith List Bool Arith Lia.
From WV Require Import Base.ListX C15.Model C22.VScript.
From WV Require C15.Proofs.
Import ListNotations.
Open Scope N_scope.

Definition name_byte (c : N) : bool :=
  ((48 <=? c) && (c <=? 57)) || ((65 <=? c) && (c <=? 90)) || ((97 <=? c) && (c <=? 122)) || (c =? 95) || (c =? 46).
Definition pat_byte (c : N) : bool := name_byte c || (c =? 42) || (c =? 63).

(* Every byte the parsers look for (white space, quote, braces, ';', ':', '\', '[' ...) lies outside the pattern alphabet;
   that is all the proofs below use of the alphabet. *)
Lemma pat_neq k c : pat_byte k = false -> pat_byte c = true -> (c =? k) = false.
Proof. intros Hk Hc. apply N.eqb_neq. intros ->. congruence. Qed.
Lemma name_byte_pat c : name_byte c = true -> pat_byte c = true.
Proof. unfold pat_byte. intros ->. reflexivity. Qed.
Lemma name_pat n : forallb name_byte n = true -> forallb pat_byte n = true.
Proof. rewrite !forallb_forall. intros H c Hc. apply name_byte_pat, H, Hc. Qed.

Lemma starts_app p r : starts p (p ++ r) = true.
Proof. induction p as [|a p IH]; cbn [starts app]; [reflexivity|]. rewrite N.eqb_refl, IH. reflexivity. Qed.

Lemma find_byte_pat b t r : pat_byte b = false -> forallb pat_byte t = true -> find_byte b (t ++ b :: r) = Some (length t).
Proof.
  unfold find_byte. intros Hb. induction t as [|c t IH]; cbn [app length forallb find_sub starts]; intros H.
  - rewrite N.eqb_refl. reflexivity.
  - apply andb_prop in H. rewrite N.eqb_sym, (pat_neq b c Hb (proj1 H)), (IH (proj2 H)). reflexivity.
Qed.

Lemma firstn_app_len {A} (t r : list A) : firstn (length t) (t ++ r) = t.
Proof. induction t as [|c t IH]; cbn; [reflexivity|]. rewrite IH. reflexivity. Qed.
Lemma skipn_app_len {A} (t r : list A) : skipn (length t) (t ++ r) = r.
Proof. induction t as [|c t IH]; [reflexivity|exact IH]. Qed.

(* a keyword is told from a pattern by its first byte outside the pattern alphabet, which is not the ';' after a pattern *)
Lemma starts_kw kw k : find (fun c => negb (pat_byte c)) kw = Some k -> (k =? SEMI) = false ->
  forall p rest, forallb pat_byte p = true -> starts kw (p ++ SEMI :: rest) = false.
Proof.
  intros Hk Hs. induction kw as [|a kw IH]; [discriminate|]. cbn [find] in Hk.
  intros [|c p] rest Hp; cbn [app starts forallb] in *; destruct (pat_byte a) eqn:Ea; cbn [negb] in Hk.
  - rewrite (pat_neq SEMI a eq_refl Ea). reflexivity.
  - injection Hk as ->. rewrite Hs. reflexivity.
  - apply andb_prop in Hp. rewrite (IH Hk p rest (proj2 Hp)). apply andb_false_r.
  - apply andb_prop in Hp. rewrite N.eqb_sym, (pat_neq a c Ea (proj1 Hp)). reflexivity.
Qed.

(* a byte that starts neither white space nor a comment: in front of one, skip_cw has nothing to skip *)
Definition solid (c : N) : bool := negb (is_ws c) && negb (c =? 35) && negb (c =? 47).
Definition tail_ok (tail : list N) : Prop := match tail with [] => True | c :: _ => solid c = true end.
Lemma skip_cw_tail tail f : tail_ok tail -> skip_cw (S f) tail = Ok tail.
Proof.
  destruct tail as [|c r]; [reflexivity|]. intros H.
  apply andb_prop in H. destruct H as [H H3]. apply andb_prop in H. destruct H as [H1 H2].
  apply negb_true_iff in H1, H2, H3. cbn [skip_cw skip_ws]. rewrite H1. cbn [starts HASH COPEN]. rewrite N.eqb_sym, H2. cbn [andb].
  rewrite (N.eqb_sym 47 c), H3. reflexivity.
Qed.
Lemma pat_byte_solid c : pat_byte c = true -> solid c = true.
Proof. intros H. unfold solid, is_ws. rewrite !(pat_neq _ c) by (reflexivity || exact H). reflexivity. Qed.
Lemma tail_ok_app n r : forallb pat_byte n = true -> tail_ok r -> tail_ok (n ++ r).
Proof. destruct n as [|c n]; intros H Hr; [exact Hr|]. cbn [forallb] in H. apply andb_prop in H. apply pat_byte_solid, H. Qed.

Lemma trim_end_pat t : forallb pat_byte t = true -> trim_end t = t.
Proof.
  intros H. unfold trim_end. transitivity (rev (rev t)); [f_equal|apply rev_involutive].
  destruct (rev t) as [|c r] eqn:E; [reflexivity|].
  assert (Hc : pat_byte c = true).
  { rewrite forallb_forall in H. apply H, in_rev. rewrite E. left; reflexivity. }
  cbn [trim_end_rev]. unfold is_ws. rewrite !(pat_neq _ c) by (reflexivity || exact Hc). reflexivity.
Qed.

(* no "**": the glob crate rejects a pattern that contains two stars in a row *)
Fixpoint nodstar (p : list N) : bool :=
  match p with
  | a :: ((b :: _) as r) => negb ((a =? 42) && (b =? 42)) && nodstar r
  | _ => true
  end.

Definition expected (p : list N) : matcher :=
  if beqb p [42] then MAll
  else if existsb (N.eqb 42) p then MStar p
  else if existsb (N.eqb 63) p then MNonStar p
  else MExact p.

Lemma analyze_loop_pat : forall p t, forallb pat_byte p = true ->
  analyze_loop p t false = if existsb (N.eqb 42) p then Star else if existsb (N.eqb 63) p then NonStar else t.
Proof.
  induction p as [|c p IH]; intros t H; cbn [analyze_loop existsb forallb] in *; [reflexivity|].
  apply andb_prop in H. destruct H as [Hc Hp].
  rewrite (pat_neq BS c eq_refl Hc), (pat_neq LB c eq_refl Hc), (pat_neq RB c eq_refl Hc).
  unfold STAR, QM. rewrite (N.eqb_sym 42 c), (N.eqb_sym 63 c).
  destruct (c =? 42); [reflexivity|]. destruct (c =? 63); cbn [orb]; rewrite (IH _ Hp); [|reflexivity].
  destruct (existsb (N.eqb 42) p); [reflexivity|]. destruct (existsb (N.eqb 63) p); reflexivity.
Qed.
Lemma special_pat p : forallb pat_byte p = true -> existsb special p = existsb (N.eqb 42) p || existsb (N.eqb 63) p.
Proof.
  induction p as [|c p IH]; intros H; cbn [existsb forallb] in *; [reflexivity|].
  apply andb_prop in H. destruct H as [Hc Hp]. rewrite (IH Hp). unfold special, STAR, QM.
  rewrite (pat_neq BS c eq_refl Hc), (pat_neq LB c eq_refl Hc), (pat_neq RB c eq_refl Hc), (N.eqb_sym 42 c), (N.eqb_sym 63 c).
  destruct (c =? 42), (c =? 63); cbn [orb]; rewrite ?orb_true_r; reflexivity.
Qed.
Lemma analyze_pat p : forallb pat_byte p = true ->
  analyze p = if existsb (N.eqb 42) p then Star else if existsb (N.eqb 63) p then NonStar else Exact.
Proof.
  intros H. unfold analyze. rewrite (special_pat p H), (analyze_loop_pat p Exact H).
  destruct (existsb (N.eqb 42) p); [reflexivity|]. destruct (existsb (N.eqb 63) p); reflexivity.
Qed.

Lemma rewrite_neg_pat : forall p, forallb pat_byte p = true -> rewrite_neg p = p.
Proof.
  induction p as [|c p IH]; intros H; [reflexivity|]. destruct p as [|d p]; [reflexivity|].
  cbn [forallb] in H. apply andb_prop in H. destruct H as [Hc Hp].
  change (rewrite_neg (c :: d :: p)) with (if (c =? LB) && (d =? CARET) then LB :: BANG :: rewrite_neg p else c :: rewrite_neg (d :: p)).
  rewrite (pat_neq LB c eq_refl Hc). cbn [andb]. f_equal. apply IH. exact Hp.
Qed.

Lemma starts_one a t : starts [a] t && Nat.eqb (length t) 1 = beqb t [a].
Proof.
  destruct t as [|c [|d t]]; cbn.
  - reflexivity.
  - rewrite !andb_true_r. apply N.eqb_sym.
  - rewrite !andb_false_r. reflexivity.
Qed.

(* beqb is C15.Model.beq, written out a second time *)
Lemma beqb_eq a b : beqb a b = true <-> a = b.
Proof. exact (C15.Proofs.beq_eq a b). Qed.

Definition good (p : list N) : Prop := p <> [] /\ forallb pat_byte p = true /\ nodstar p = true.

Definition print_pats (ps : list (list N)) : list N := flat_map (fun p => p ++ [SEMI]) ps.
Definition singles (ps : list (list N)) : list pm := map (fun p => Single (expected p)) ps.

Lemma print_pats_cons p ps rest : print_pats (p :: ps) ++ rest = p ++ SEMI :: (print_pats ps ++ rest).
Proof. unfold print_pats. cbn [flat_map]. rewrite <- !app_assoc. reflexivity. Qed.

Definition print_body (g l : list (list N)) : list N :=
  LBRACE :: GLOBAL ++ print_pats g ++ LOCAL ++ print_pats l ++ [RBRACE].

(* [gives loop s out]: the fuelled loop returns out on s as soon as the fuel exceeds the length of s.  One turn of a loop
   is an equation  loop (S f) s = loop' f rest  that asks nothing of f; gives_step chains such turns and gives_end closes
   the chain, so that no fuel is ever counted; gives_at is the call the parsers make, with fuel S (length s). *)
Definition gives {X} (loop : nat -> list N -> X) (s : list N) (out : X) : Prop :=
  forall f, (length s < f)%nat -> loop f s = out.
Lemma gives_step {X} (loop loop' : nat -> list N -> X) s rest out :
  (forall f, loop (S f) s = loop' f rest) -> (length rest < length s)%nat -> gives loop' rest out -> gives loop s out.
Proof. intros E L H [|f] Hf; [lia|]. rewrite E. apply H. lia. Qed.
Lemma gives_end {X} (loop : nat -> list N -> X) s out : (forall f, loop (S f) s = out) -> gives loop s out.
Proof. intros E [|f] Hf; [lia|apply E]. Qed.
Lemma gives_at {X} (loop : nat -> list N -> X) s out : gives loop s out -> loop (S (length s)) s = out.
Proof. intros H. apply H, Nat.lt_succ_diag_r. Qed.

(* a loop that takes one pattern per turn takes a printed list of patterns *)
Lemma pats_loop {X} (loop : list pm -> nat -> list N -> X) rest :
  (forall p r acc f, good p -> loop acc (S f) (p ++ SEMI :: r) = loop (acc ++ [Single (expected p)]) f r) ->
  forall ps acc out, Forall good ps -> gives (loop (acc ++ singles ps)) rest out -> gives (loop acc) (print_pats ps ++ rest) out.
Proof.
  intros E. induction ps as [|p ps IH]; intros acc out Hg H.
  - rewrite app_nil_r in H. exact H.
  - inversion Hg as [|? ? Hp Hps]. rewrite print_pats_cons.
    refine (gives_step _ _ _ _ _ (fun f => E p _ acc f Hp) _ (IH _ _ Hps _)); [rewrite (app_length p); cbn [length]; lia|].
    rewrite <- app_assoc. exact H.
Qed.

Section Body.
  Variable glob_ok : list N -> bool.
  Hypothesis glob_ok_pat : forall p, forallb pat_byte p = true -> nodstar p = true -> glob_ok p = true.

  Lemma classify_pat p : p <> [] -> forallb pat_byte p = true -> nodstar p = true -> classify glob_ok p = Ok (expected p).
  Proof using glob_ok_pat.
    intros Hne H Hds. unfold classify, expected.
    replace (strip_quotes p) with (@None (list N)).
    2:{ destruct p as [|c p]; [contradiction|]. cbn [forallb] in H. apply andb_prop in H.
        unfold strip_quotes. rewrite (pat_neq QUOTE c eq_refl (proj1 H)). reflexivity. }
    rewrite starts_one, (analyze_pat p H), (glob_ok_pat p H Hds), (rewrite_neg_pat p H).
    destruct (beqb p [42]); [reflexivity|]. destruct (existsb (N.eqb 42) p); [reflexivity|]. destruct (existsb (N.eqb 63) p); reflexivity.
  Qed.

  Lemma parse_single_pat p rest fuel : p <> [] -> forallb pat_byte p = true -> nodstar p = true -> (0 < fuel)%nat ->
    parse_single glob_ok fuel (p ++ SEMI :: rest) false = Ok (expected p, rest).
  Proof using glob_ok_pat.
    intros Hne H Hds Hf. unfold parse_single. rewrite (find_byte_pat SEMI p rest eq_refl H).
    destruct (Nat.eqb_spec (length p) 0) as [E|E]; [destruct p; [contradiction|discriminate]|].
    rewrite firstn_app_len, skipn_app_len.
    destruct fuel as [|f]; [lia|]. rewrite (skip_cw_tail (SEMI :: rest) f eq_refl).
    rewrite (trim_end_pat p H), (classify_pat p Hne H Hds). reflexivity.
  Qed.

  Lemma parse_matcher_pat p rest : good p -> parse_matcher glob_ok (p ++ SEMI :: rest) false = Ok (Single (expected p), rest).
  Proof using glob_ok_pat.
    intros [Hne [H Hds]]. unfold parse_matcher. rewrite (starts_kw EXTERN 32 eq_refl eq_refl p rest H).
    rewrite (parse_single_pat p rest _ Hne H Hds (Nat.lt_0_succ _)). reflexivity.
  Qed.

  (* the section loop, one turn at a time; g and l are what has been read so far, in order *)
  Definition sec (loc : bool) (g l : list pm) (f : nat) (s : list N) := section_loop glob_ok f s loc (rev g) (rev l).

  Lemma sec_global rest loc g l f : sec loc g l (S f) (GLOBAL ++ rest) = sec false g l f rest.
  Proof. reflexivity. Qed.
  Lemma sec_local rest loc g l f : sec loc g l (S f) (LOCAL ++ rest) = sec true g l f rest.
  Proof. reflexivity. Qed.
  Lemma sec_pat p rest loc g l f : good p ->
    sec loc g l (S f) (p ++ SEMI :: rest) =
    sec loc (if loc then g else g ++ [Single (expected p)]) (if loc then l ++ [Single (expected p)] else l) f rest.
  Proof using glob_ok_pat.
    intros Hp. pose proof Hp as (Hne & Hpb & _). unfold sec. cbn [section_loop].
    rewrite (skip_cw_tail _ _ (tail_ok_app p (SEMI :: rest) Hpb eq_refl)), (parse_matcher_pat p rest Hp).
    rewrite (starts_kw GLOBAL 58 eq_refl eq_refl p rest Hpb), (starts_kw LOCAL 58 eq_refl eq_refl p rest Hpb).
    destruct p as [|c p]; [contradiction|]. cbn [app forallb] in *. apply andb_prop in Hpb.
    rewrite (pat_neq RBRACE c eq_refl (proj1 Hpb)). destruct loc; rewrite rev_unit; reflexivity.
  Qed.
  Lemma sec_close tail loc g l f : tail_ok tail ->
    sec loc g l (S f) (RBRACE :: tail) = Ok ({| globals := g; locals := l |}, tail).
  Proof.
    intros Ht. unfold sec. cbn [section_loop]. rewrite (skip_cw_tail (RBRACE :: tail) _ eq_refl), N.eqb_refl.
    rewrite (skip_cw_tail tail _ Ht), !rev_involutive. reflexivity.
  Qed.

  (* The fuel parse_section passes is S (length r).  This step is taken while r is still a variable: with the printed
     text in its place the kernel, asked whether  sec false [] [] (S (length r)) r  is the section_loop call of the
     goal, evaluates length and runs the parser over the text, which is slow to check. *)
  Lemma parse_section_brace r out : gives (sec false [] []) r out -> parse_section glob_ok (LBRACE :: r) = out.
  Proof. intros H. cbn [parse_section]. exact (gives_at _ r out H). Qed.

  Lemma parse_section_body g l tail : Forall good g -> Forall good l -> tail_ok tail ->
    parse_section glob_ok (print_body g l ++ tail) = Ok ({| globals := singles g; locals := singles l |}, tail).
  Proof using glob_ok_pat.
    intros Hg Hl Ht. unfold print_body. cbn [app]. apply parse_section_brace. rewrite <- !app_assoc.
    apply (gives_step _ _ _ _ _ (sec_global _ false [] [])); [rewrite (app_length GLOBAL); cbn [length GLOBAL]; lia|].
    apply (pats_loop (fun acc => sec false acc []) _ (fun p r acc f => sec_pat p r false acc [] f) g [] _ Hg).
    apply (gives_step _ _ _ _ _ (sec_local _ false _ _)); [rewrite (app_length LOCAL); cbn [length LOCAL]; lia|].
    apply (pats_loop (fun acc => sec true (singles g) acc) _ (fun p r acc f => sec_pat p r true (singles g) acc f) l [] _ Hl).
    apply gives_end. intros f. apply sec_close, Ht.
  Qed.
End Body.

Record sversion := { sname : list N; sparent : option nat; sglob : list (list N); sloc : list (list N) }.

Definition good_name (n : list N) : Prop := n <> [] /\ forallb name_byte n = true.

Definition parent_name (done : list (list N)) (p : option nat) : list N :=
  match p with Some k => nth k done [] | None => [] end.
Definition print_version (done : list (list N)) (v : sversion) : list N :=
  sname v ++ print_body (sglob v) (sloc v) ++ parent_name done (sparent v) ++ [SEMI].
Fixpoint print_versions (done : list (list N)) (vs : list sversion) : list N :=
  match vs with [] => [] | v :: r => print_version done v ++ print_versions (done ++ [sname v]) r end.
Definition print_script (vs : list sversion) : list N := print_versions [] vs.

Definition to_version (v : sversion) : version :=
  {| vname := sname v; vparent := match sparent v with Some k => Some (S k) | None => None end;
     vbody := {| globals := singles (sglob v); locals := singles (sloc v) |} |}.

Fixpoint wf_versions (done : list (list N)) (vs : list sversion) : Prop :=
  match vs with
  | [] => True
  | v :: r => good_name (sname v) /\ ~ In (sname v) done /\ Forall good (sglob v) /\ Forall good (sloc v) /\
              (match sparent v with Some k => (k < length done)%nat | None => True end) /\
              wf_versions (done ++ [sname v]) r
  end.

Lemma take_tok_name n r : forallb name_byte n = true -> match r with c :: _ => tok_byte c = false | [] => True end ->
  take_tok (n ++ r) = (n, r).
Proof.
  intros H Hr. induction n as [|c n IH]; cbn [app take_tok forallb] in *.
  - destruct r as [|c r]; [reflexivity|]. cbn [take_tok]. rewrite Hr. reflexivity.
  - apply andb_prop in H. destruct H as [Hc Hn]. rewrite (IH Hn). unfold tok_byte.
    rewrite !(pat_neq _ c) by (reflexivity || exact (name_byte_pat c Hc)). reflexivity.
Qed.

Lemma skipn_past {A} (t : list A) b r : skipn (S (length t)) (t ++ b :: r) = r.
Proof. induction t as [|c t IH]; [reflexivity|exact IH]. Qed.

Lemma position_skip names n i : ~ In n names -> position names n i = None.
Proof.
  revert i; induction names as [|x r IH]; intros i H; cbn [position]; [reflexivity|].
  destruct (beqb x n) eqn:E; [apply beqb_eq in E; subst; exfalso; apply H; left; reflexivity|].
  apply IH. intros Hin. apply H. right; exact Hin.
Qed.
Lemma position_nodup : forall names k i, NoDup names -> (k < length names)%nat -> position names (nth k names []) i = Some (i + k)%nat.
Proof.
  induction names as [|x r IH]; intros k i Hnd Hk; cbn [length] in Hk; [lia|].
  inversion Hnd as [|? ? Hx Hr]; subst. destruct k as [|k]; cbn [nth position].
  - rewrite (proj2 (beqb_eq x x) eq_refl). f_equal. lia.
  - destruct (beqb x (nth k r [])) eqn:E.
    + apply beqb_eq in E. exfalso. apply Hx. rewrite E. apply nth_In. lia.
    + rewrite (IH k (S i) Hr ltac:(lia)). f_equal. lia.
Qed.

(* the parent, printed as a name, is read back as its index behind the base version "" *)
Lemma parent_index done parent : NoDup done -> Forall good_name done ->
  match parent with Some k => (k < length done)%nat | None => True end ->
  forallb pat_byte (parent_name done parent) = true /\
  match parent_name done parent with
  | [] => Some None
  | _ :: _ => match position ([] :: done) (parent_name done parent) 0 with Some k => Some (Some k) | None => None end
  end = Some (match parent with Some k => Some (S k) | None => None end).
Proof.
  intros Hnd Hgn Hpar. destruct parent as [k|]; [|split; reflexivity]. cbn [parent_name].
  rewrite Forall_forall in Hgn. destruct (Hgn _ (nth_In _ [] Hpar)) as [Hne Hnb]. split; [exact (name_pat _ Hnb)|].
  destruct (nth k done []) as [|q0 q] eqn:Eq; [contradiction|]. cbn [position beqb].
  rewrite <- Eq, (position_nodup done k 1 Hnd Hpar). reflexivity.
Qed.

Lemma print_versions_tail done vs : wf_versions done vs -> tail_ok (print_versions done vs).
Proof.
  destruct vs as [|v vs]; intros Hwf; [exact I|]. cbn [print_versions]. unfold print_version. rewrite <- !app_assoc.
  apply tail_ok_app; [apply name_pat, Hwf|reflexivity].
Qed.

Section Script.
  Variable glob_ok : list N -> bool.
  Hypothesis glob_ok_pat : forall p, forallb pat_byte p = true -> nodstar p = true -> glob_ok p = true.

  (* the loop over versions; acc is what has been read so far, in order *)
  Definition vers (names : list (list N)) (acc : list version) (f : nat) (s : list N) := versions_loop glob_ok f s names (rev acc).

  Lemma vers_step done v next acc f :
    good_name (sname v) -> Forall good (sglob v) -> Forall good (sloc v) ->
    match sparent v with Some k => (k < length done)%nat | None => True end ->
    NoDup done -> Forall good_name done -> tail_ok next ->
    vers ([] :: done) acc (S f) (print_version done v ++ next) = vers ([] :: done ++ [sname v]) (acc ++ [to_version v]) f next.
  Proof using glob_ok_pat.
    intros [Hne Hnb] Hg Hl Hpar Hnd Hgn Hnext. destruct (parent_index done (sparent v) Hnd Hgn Hpar) as [Epn Ep].
    unfold vers, print_version. rewrite <- !app_assoc, rev_unit.
    destruct v as [n par g l]. cbn [sname sparent sglob sloc] in *. set (pn := parent_name done par) in *.
    destruct n as [|c n]; [contradiction|]. cbn [versions_loop].
    rewrite (take_tok_name (c :: n)) by (exact Hnb || reflexivity). cbn [app]. rewrite (skip_cw_tail (print_body g l ++ _) _ eq_refl).
    rewrite (parse_section_body glob_ok glob_ok_pat g l (pn ++ SEMI :: next) Hg Hl (tail_ok_app pn (SEMI :: next) Epn eq_refl)).
    rewrite (find_byte_pat SEMI pn next eq_refl Epn), firstn_app_len, skipn_past, Ep, (skip_cw_tail next _ Hnext). reflexivity.
  Qed.

  Lemma versions_round : forall vs done acc, wf_versions done vs -> NoDup done -> Forall good_name done ->
    gives (vers ([] :: done) acc) (print_versions done vs) (Ok (Versions (acc ++ map to_version vs))).
  Proof using glob_ok_pat.
    induction vs as [|v vs IH]; intros done acc Hwf Hnd Hgn.
    - apply gives_end. intros f. unfold vers. cbn [print_versions versions_loop map]. rewrite rev_involutive, app_nil_r. reflexivity.
    - destruct Hwf as (Hname & Hfresh & Hg & Hl & Hpar & Hrest). cbn [print_versions map].
      refine (gives_step _ _ _ _ _ (fun f => vers_step done v _ acc f Hname Hg Hl Hpar Hnd Hgn (print_versions_tail _ _ Hrest)) _ _).
      + unfold print_version. rewrite !app_length. cbn [length]. lia.
      + replace (acc ++ to_version v :: map to_version vs) with ((acc ++ [to_version v]) ++ map to_version vs) by (rewrite <- app_assoc; reflexivity).
        apply IH; [exact Hrest|apply NoDup_snoc; assumption|].
        apply Forall_app. split; [exact Hgn|]. constructor; [exact Hname|constructor].
  Qed.
End Script.

(* the hypotheses are satisfiable and the statement computes *)
Example round_trip_example :
  let vs := [ {| sname := [86; 49]; sparent := None; sglob := [[102; 111; 111]; [98; 42]]; sloc := [[42]] |};
              {| sname := [86; 50]; sparent := Some 0%nat; sglob := [[98; 97; 63]]; sloc := [] |} ] in
  wf_versions [] vs /\
  parse_version_script (fun _ => true) (print_script vs) = Ok (Versions (map to_version vs)).
Proof.
  split; [|vm_compute; reflexivity].
  cbn [wf_versions app sname sparent sglob sloc length]. unfold good_name, good.
  repeat match goal with
         | |- _ /\ _ => split
         | |- Forall _ _ => constructor
         | |- True => exact I
         | |- _ <> _ => discriminate
         | |- ~ In _ [] => intros []
         | |- ~ In _ [_] => let H := fresh in intros [H|[]]; discriminate H
         | |- (_ < _)%nat => lia
         | |- _ = true => reflexivity
         end.
Qed.
