From Coq Require Import NArith List Bool Arith Lia.
From WV Require Import C15.Model C22.VScript.
Import ListNotations.
Open Scope N_scope.

(* [ends P x]: the run x did not stop for lack of fuel, and whatever it returned satisfies P.  Every parser below is a
   chain of  match x with Ok a => k a | Err => Err | Fuel => Fuel end,  so [ends_bind] is the only step there is: what is
   left after x bounds the input of k.  A bound n on the rest is carried along instead of the length of the input, so
   that a recursive call on a shorter input needs no weakening afterwards. *)
Definition ends {A} (P : A -> Prop) (x : res A) : Prop :=
  match x with Ok a => P a | Err => True | Fuel => False end.

Lemma ends_bind {A B} (P : A -> Prop) (Q : B -> Prop) (x : res A) (k : A -> res B) :
  ends P x -> (forall a, P a -> ends Q (k a)) -> ends Q (match x with Ok a => k a | Err => Err | Fuel => Fuel end).
Proof. destruct x; intros H K; [apply K, H|exact I|exact H]. Qed.

Lemma ends_nofuel {A} (P : A -> Prop) x : ends P x -> x <> Fuel.
Proof. intros H ->. exact H. Qed.
Lemma ends_ok {A} (P : A -> Prop) x a : ends P x -> x = Ok a -> P a.
Proof. intros H ->. exact H. Qed.

Definition rest_le {A} (n : nat) (x : A * list N) : Prop := (length (snd x) <= n)%nat.

Lemma ends_bind_rest {A B} n (Q : B -> Prop) (x : res (A * list N)) (k : A * list N -> res B) :
  ends (rest_le n) x -> (forall a r, (length r <= n)%nat -> ends Q (k (a, r))) ->
  ends Q (match x with Ok a => k a | Err => Err | Fuel => Fuel end).
Proof. intros H K. apply (ends_bind _ _ _ _ H). intros [a r]. apply K. Qed.

(* One step through a parser: the goal is  ends Q (match x with Ok a => k a | Err => Err | Fuel => Fuel end)  and L is the
   lemma that says x ends within some bound; its premises are comparisons of lengths.  What is left is
   forall a, P a -> ends Q (k a),  or, when x returns a rest,  forall a r, length r <= n -> ends Q (k (a, r)).
   cbv beta iota, because P and k arrive as lambdas, and k takes its pair apart. *)
Ltac step L := first [eapply ends_bind_rest | eapply ends_bind]; [apply L; rewrite ?skipn_length; lia | cbv beta iota].

(* pred (length s) bounds the rest by the input and, when there is input, strictly *)
Lemma ends_shorter {A} (x : res (A * list N)) (s : list N) : ends (rest_le (pred (length s))) x ->
  x <> Fuel /\ forall a r, x = Ok (a, r) -> (length r <= length s)%nat /\ (s <> [] -> (length r < length s)%nat).
Proof.
  intros E. split; [exact (ends_nofuel _ _ E)|]. intros a r H. apply (ends_ok _ _ _ E) in H. unfold rest_le in H. cbn [snd] in H.
  split; [lia|]. destruct s; [contradiction|]. cbn [length pred] in *. lia.
Qed.

Lemma skip_ws_len s : (length (skip_ws s) <= length s)%nat.
Proof. induction s as [|c r IH]; cbn [skip_ws]; [lia|]. destruct (is_ws c); cbn [length]; lia. Qed.

Lemma starts_len p s : starts p s = true -> (length p <= length s)%nat.
Proof.
  revert s; induction p as [|a p IH]; intros s H; cbn [length]; [lia|].
  destruct s as [|b s]; cbn [starts] in H; [discriminate|]. apply andb_prop in H. destruct H as [_ H]. apply IH in H. cbn [length]. lia.
Qed.

Lemma find_sub_bound p s i : find_sub p s = Some i -> (i + length p <= length s)%nat.
Proof.
  revert i; induction s as [|c r IH]; intros i H.
  - cbn [find_sub] in H. destruct (starts p []) eqn:E; [|discriminate]. inversion H; subst. apply starts_len in E. lia.
  - cbn [find_sub] in H. destruct (starts p (c :: r)) eqn:E.
    + inversion H; subst. apply starts_len in E. lia.
    + destruct (find_sub p r) as [j|] eqn:F; [|discriminate]. inversion H; subst. specialize (IH j eq_refl). cbn [length]. lia.
Qed.
Lemma find_byte_bound b s i : find_byte b s = Some i -> (i < length s)%nat.
Proof. intros H. apply find_sub_bound in H. cbn [length] in H. lia. Qed.

Lemma skip_cw_ends n : forall fuel s, (length s < fuel)%nat -> (length s <= n)%nat ->
  ends (fun r => (length r <= n)%nat) (skip_cw fuel s).
Proof.
  induction fuel as [|f IH]; intros s Hf Hn; [lia|]. cbn [skip_cw].
  pose proof (skip_ws_len s) as Hw. set (s1 := skip_ws s) in *.
  destruct (starts HASH s1).
  - destruct (find_byte 10 s1) as [i|] eqn:F; [|exact I]. destruct (Nat.eqb_spec i 0); [exact I|].
    apply find_byte_bound in F. apply IH; rewrite skipn_length; lia.
  - destruct (starts COPEN s1); [|cbn [ends]; lia].
    destruct (find_sub CCLOSE s1) as [i|] eqn:F; [|exact I]. destruct (Nat.eqb_spec i 0); [exact I|].
    apply find_sub_bound in F. apply IH; rewrite skipn_length; lia.
Qed.

Section P.
  Variable glob_ok : list N -> bool.

  Lemma classify_ends t : ends (fun _ => True) (classify glob_ok t).
  Proof.
    unfold classify. destruct (strip_quotes t); [exact I|]. destruct (starts [42] t && Nat.eqb (length t) 1); [exact I|].
    destruct (analyze t), (glob_ok t); exact I.
  Qed.

  Lemma parse_single_ends s w fuel : (length s < fuel)%nat -> ends (rest_le (pred (length s))) (parse_single glob_ok fuel s w).
  Proof.
    intros Hf. unfold parse_single. set (tok := if w then _ else _).
    assert (Ht : match tok with None => True | Some (t, r) => (length r <= pred (length s))%nat end).
    { unfold tok. destruct w, (find_byte _ s) as [i|].
      - destruct (Nat.eqb_spec i 0); [exact I|]. rewrite skipn_length. lia.
      - cbn [length]. lia.
      - destruct (Nat.eqb_spec i 0); [exact I|]. rewrite skipn_length. lia.
      - exact I. }
    destruct tok as [[t r]|]; [|exact I].
    step (skip_cw_ends (pred (length s))). intros r1 H1.
    step classify_ends. intros m _. unfold rest_le. cbn [ends snd].
    destruct r1 as [|c r']; [exact H1|]. destruct (c =? SEMI); cbn [length] in *; lia.
  Qed.

  Lemma parse_single_ok s w : forall fuel, (length s < fuel)%nat ->
    parse_single glob_ok fuel s w <> Fuel /\
    forall m r, parse_single glob_ok fuel s w = Ok (m, r) -> (length r <= length s)%nat /\ (s <> [] -> (length r < length s)%nat).
  Proof. intros fuel Hf. apply ends_shorter, parse_single_ends, Hf. Qed.

  Lemma extern_loop_ends n block w : forall fuel s acc, (length s < fuel)%nat -> (length s <= n)%nat ->
    ends (rest_le n) (extern_loop glob_ok fuel block s w acc).
  Proof.
    induction fuel as [|f IH]; intros s acc Hf Hn; [lia|]. cbn [extern_loop].
    step (skip_cw_ends (length s)). intros s1 H1.
    destruct (starts CLOSE s1).
    - step (skip_cw_ends n). intros s2 H2. exact H2.
    - destruct s1 as [|c s1']; [exact I|]. destruct (starts EXTERN (c :: s1')); [exact I|].
      step parse_single_ends. intros m r Hr. cbn [length pred] in *. apply IH; lia.
  Qed.

  Lemma parse_matcher_ends s w : ends (rest_le (pred (length s))) (parse_matcher glob_ok s w).
  Proof.
    unfold parse_matcher. destruct (starts EXTERN s).
    - set (hdr := if starts QCXX _ then _ else _).
      assert (Hh : match hdr with None => True | Some (_, s1) => (length s1 <= length s - 7)%nat end).
      { unfold hdr. destruct (starts QCXX _); [rewrite !skipn_length; lia|]. destruct (starts QC _); [rewrite !skipn_length; lia|exact I]. }
      destruct hdr as [[cxx s1]|]; [|exact I].
      step (skip_cw_ends (length s1)). intros [|c block] Hl; [exact I|]. cbn [length] in Hl.
      destruct (c =? LBRACE); [|exact I].
      step (extern_loop_ends (length block)). intros ms r Hr.
      unfold rest_le. cbn [ends snd]. lia.
    - step (parse_single_ends s w). intros m r Hr. exact Hr.
  Qed.

  Lemma parse_matcher_ok s w :
    parse_matcher glob_ok s w <> Fuel /\
    forall m r, parse_matcher glob_ok s w = Ok (m, r) -> (length r <= length s)%nat /\ (s <> [] -> (length r < length s)%nat).
  Proof. apply ends_shorter, parse_matcher_ends. Qed.

  Lemma section_loop_ends n : forall fuel s loc g l, (length s < fuel)%nat -> (length s <= n)%nat ->
    ends (rest_le n) (section_loop glob_ok fuel s loc g l).
  Proof.
    induction fuel as [|f IH]; intros s loc g l Hf Hn; [lia|]. cbn [section_loop].
    step (skip_cw_ends (length s)). intros [|c r] H1.
    - step parse_matcher_ends. intros _ _ _. exact I.
    - cbn [length] in H1. destruct (c =? RBRACE).
      + step (skip_cw_ends n). intros r1 Hr1. exact Hr1.
      + destruct (starts GLOBAL (c :: r)); [apply IH; rewrite skipn_length; cbn [length]; lia|].
        destruct (starts LOCAL (c :: r)); [apply IH; rewrite skipn_length; cbn [length]; lia|].
        step parse_matcher_ends. intros m r1 Hr. cbn [length pred] in Hr. destruct loc; apply IH; lia.
  Qed.

  Lemma parse_section_ends s : ends (rest_le (pred (length s))) (parse_section glob_ok s).
  Proof.
    unfold parse_section. destruct s as [|c r]; [exact I|]. destruct (c =? LBRACE); [|exact I].
    apply section_loop_ends; cbn [length pred]; lia.
  Qed.

  Lemma parse_section_ok s :
    parse_section glob_ok s <> Fuel /\ forall b r, parse_section glob_ok s = Ok (b, r) -> (length r < length s)%nat.
  Proof.
    destruct (ends_shorter _ s (parse_section_ends s)) as [H1 H2]. split; [exact H1|]. intros b r H.
    apply (H2 b r H). intros ->. discriminate H.
  Qed.

  Lemma take_tok_len s : (length (snd (take_tok s)) + length (fst (take_tok s)) = length s)%nat.
  Proof.
    induction s as [|c r IH]; cbn [take_tok]; [reflexivity|]. destruct (tok_byte c); [|cbn [fst snd length]; lia].
    destruct (take_tok r) as [t r']. cbn [fst snd length] in *. lia.
  Qed.

  Lemma versions_loop_ends : forall fuel s names acc, (length s < fuel)%nat -> ends (fun _ => True) (versions_loop glob_ok fuel s names acc).
  Proof.
    induction fuel as [|f IH]; intros s names acc Hf; [lia|]. cbn [versions_loop].
    destruct s as [|c s']; [exact I|]. set (s := c :: s') in *.
    pose proof (take_tok_len s) as Ht. destruct (take_tok s) as [name r]. cbn [fst snd] in Ht.
    destruct name as [|n0 name']; [exact I|]. cbn [length] in Ht.
    step (skip_cw_ends (length r)). intros r1 H1.
    step parse_section_ends. intros b r2 H2.
    destruct (find_byte SEMI r2) as [i|]; [|exact I].
    destruct (match firstn i r2 with [] => Some None | _ :: _ => _ end) as [p|]; [|exact I].
    step (skip_cw_ends (length r2)). intros r3 H3. apply IH. lia.
  Qed.

  Theorem parse_version_script_terminates input : parse_version_script glob_ok input <> Fuel.
  Proof.
    apply (ends_nofuel (fun _ => True)). unfold parse_version_script.
    step (skip_cw_ends (length input)). intros s Hs.
    destruct (starts [LBRACE] s); [|apply versions_loop_ends; lia].
    step parse_section_ends. intros b [|c r] _; [exact I|]. destruct (c =? SEMI); [|exact I].
    step (skip_cw_ends (length r)). intros [|x y] _; exact I.
  Qed.

  Lemma export_loop_ends : forall fuel s acc, (length s < fuel)%nat -> ends (fun _ => True) (export_loop glob_ok fuel s acc).
  Proof.
    induction fuel as [|f IH]; intros s acc Hf; [lia|]. cbn [export_loop].
    step (skip_cw_ends (length s)). intros s1 H1.
    destruct (starts CLOSE s1).
    - step (skip_cw_ends (length s1)). intros [|x y] _; exact I.
    - destruct s1 as [|c s1']; [exact I|].     (* on no input parse_matcher is Err *)
      step parse_matcher_ends. intros m r Hr. cbn [length pred] in *. apply IH. lia.
  Qed.

  Theorem parse_export_list_terminates input : parse_export_list glob_ok input <> Fuel.
  Proof.
    apply (ends_nofuel (fun _ => True)). unfold parse_export_list.
    step (skip_cw_ends (length input)). intros [|c r] H; [exact I|].
    destruct (c =? LBRACE); [|exact I]. apply export_loop_ends. lia.
  Qed.
End P.
