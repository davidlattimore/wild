(* C22 — expansion of `@file` arguments (libwild/src/args.rs ArgumentParser::handle_argument): an argument `@path`
   is replaced, recursively and in place, by the arguments read from the file; at most MAX_RESPONSE_FILE_DEPTH = 100
   levels.  The file system is a function from file ids to contents; nothing is assumed about it (cycles allowed). *)
From Coq Require Import NArith List.
Import ListNotations.
Open Scope N_scope.

Inductive arg := Plain (n : N) | At (f : N).
Definition fsys := N -> option (list arg).        (* None: the file cannot be read *)
Inductive xres := XOk (l : list N) | XTooDeep | XMissing.

Definition MAX : nat := 100.

(* levels = how many more levels of nesting are allowed *)
Fixpoint expand (fs : fsys) (levels : nat) : list arg -> xres :=
  fix go (args : list arg) : xres :=
    match args with
    | [] => XOk []
    | Plain n :: r => match go r with XOk l => XOk (n :: l) | e => e end
    | At f :: r =>
        match levels with
        | O => XTooDeep
        | S lv =>
            match fs f with
            | None => XMissing
            | Some inner =>
                match expand fs lv inner with
                | XOk l1 => match go r with XOk l2 => XOk (l1 ++ l2) | e => e end
                | e => e
                end
            end
        end
    end.
Definition expand_args (fs : fsys) (args : list arg) : xres := expand fs MAX args.

(* the pinned tree: no bound; fuel is only the model's way of running it *)
Inductive ures := UOk (l : list N) | UMissing | UFuel.
Fixpoint expand_unbounded (fs : fsys) (fuel : nat) : list arg -> ures :=
  fix go (args : list arg) : ures :=
    match args with
    | [] => UOk []
    | Plain n :: r => match go r with UOk l => UOk (n :: l) | e => e end
    | At f :: r =>
        match fuel with
        | O => UFuel
        | S fu =>
            match fs f with
            | None => UMissing
            | Some inner =>
                match expand_unbounded fs fu inner with
                | UOk l1 => match go r with UOk l2 => UOk (l1 ++ l2) | e => e end
                | e => e
                end
            end
        end
    end.

Lemma expand_nil fs lv : expand fs lv [] = XOk [].
Proof. destruct lv; reflexivity. Qed.
Lemma expand_plain fs lv n r : expand fs lv (Plain n :: r) = match expand fs lv r with XOk l => XOk (n :: l) | e => e end.
Proof. destruct lv; reflexivity. Qed.
Lemma expand_at_0 fs f r : expand fs 0 (At f :: r) = XTooDeep.
Proof. reflexivity. Qed.
Lemma expand_at_S fs lv f r : expand fs (S lv) (At f :: r) =
  match fs f with
  | None => XMissing
  | Some inner => match expand fs lv inner with
                  | XOk l1 => match expand fs (S lv) r with XOk l2 => XOk (l1 ++ l2) | e => e end
                  | e => e
                  end
  end.
Proof. reflexivity. Qed.
Lemma uexpand_nil fs fu : expand_unbounded fs fu [] = UOk [].
Proof. destruct fu; reflexivity. Qed.
Lemma uexpand_plain fs fu n r : expand_unbounded fs fu (Plain n :: r) = match expand_unbounded fs fu r with UOk l => UOk (n :: l) | e => e end.
Proof. destruct fu; reflexivity. Qed.
Lemma uexpand_at_0 fs f r : expand_unbounded fs 0 (At f :: r) = UFuel.
Proof. reflexivity. Qed.
Lemma uexpand_at_S fs fu f r : expand_unbounded fs (S fu) (At f :: r) =
  match fs f with
  | None => UMissing
  | Some inner => match expand_unbounded fs fu inner with
                  | UOk l1 => match expand_unbounded fs (S fu) r with UOk l2 => UOk (l1 ++ l2) | e => e end
                  | e => e
                  end
  end.
Proof. reflexivity. Qed.

Lemma self_inclusion_is_reported fs f : fs f = Some [At f] -> forall levels, expand fs levels [At f] = XTooDeep.
Proof. intros H. induction levels as [|lv IH]; [reflexivity|]. rewrite expand_at_S, H, IH. reflexivity. Qed.

(* the unbounded expansion is the bounded one under other names: fuel for levels, out of fuel for too deep *)
Definition bounded_view (u : ures) : xres := match u with UOk l => XOk l | UMissing => XMissing | UFuel => XTooDeep end.
Lemma expand_unbounded_view fs : forall n args, expand fs n args = bounded_view (expand_unbounded fs n args).
Proof.
  induction n as [|n IH]; intros args.
  - (* no level left: the first @file ends either run *)
    induction args as [|[m|f] r IHr].
    + reflexivity.
    + rewrite expand_plain, uexpand_plain, IHr. destruct (expand_unbounded fs 0 r); reflexivity.
    + reflexivity.
  - induction args as [|[m|f] r IHr].
    + reflexivity.
    + rewrite expand_plain, uexpand_plain, IHr. destruct (expand_unbounded fs (S n) r); reflexivity.
    + (* the file's contents with one level less (IH), then the rest of this list (IHr) *)
      rewrite expand_at_S, uexpand_at_S, IHr. destruct (fs f) as [inner|]; [|reflexivity]. rewrite IH.
      destruct (expand_unbounded fs n inner); [|reflexivity|reflexivity]. destruct (expand_unbounded fs (S n) r); reflexivity.
Qed.
