(* C22 — export lists (--dynamic-list), "{" patterns "};": printing one and parsing it back, with the means of VRound.v. *)
From Coq Require Import NArith List.
From WV Require Import C22.VScript C22.VRound.
Import ListNotations.
Open Scope N_scope.

Definition print_export (ps : list (list N)) : list N := LBRACE :: print_pats ps ++ CLOSE.

Section RE.
  Variable glob_ok : list N -> bool.
  Hypothesis glob_ok_pat : forall p, forallb pat_byte p = true -> nodstar p = true -> glob_ok p = true.

  Definition expl (acc : list pm) (f : nat) (s : list N) := export_loop glob_ok f s (rev acc).

  Lemma expl_pat p rest acc f : good p -> expl acc (S f) (p ++ SEMI :: rest) = expl (acc ++ [Single (expected p)]) f rest.
  Proof using glob_ok_pat.
    intros Hp. pose proof Hp as (_ & Hpb & _). unfold expl. cbn [export_loop].
    rewrite (skip_cw_tail _ _ (tail_ok_app p (SEMI :: rest) Hpb eq_refl)), (starts_kw CLOSE 125 eq_refl eq_refl p rest Hpb).
    rewrite (parse_matcher_pat glob_ok glob_ok_pat p rest Hp), rev_unit. reflexivity.
  Qed.
  Lemma expl_close acc f : expl acc (S f) CLOSE = Ok acc.
  Proof. cbn. rewrite rev_involutive. reflexivity. Qed.

  (* taken while r is a variable, as parse_section_brace is *)
  Lemma parse_export_brace r out : gives (expl []) r out -> parse_export_list glob_ok (LBRACE :: r) = out.
  Proof.
    intros H. unfold parse_export_list. rewrite (skip_cw_tail (LBRACE :: r) _ eq_refl). exact (gives_at _ r out H).
  Qed.
End RE.
