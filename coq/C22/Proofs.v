From Coq Require Import NArith List Bool.
From WV Require Import C22.Model.
Import ListNotations.
Open Scope N_scope.

Section P.
  Variable is_ws : N -> bool.
  Hypothesis bsl_not_ws : is_ws BSL = false.

  Definition unq (o : list (list N)) (h : option (list N)) : st := {| out := o; heap := h; quote := None; expect_ws := false |}.
  Definition in_progress (h : option (list N)) : list N := match h with Some l => l | None => [] end.

  Lemma read_char c o h rest :
    tok is_ws (unq o h) ((if is_quote c || is_ws c || (c =? BSL) then [BSL; c] else [c]) ++ rest) = tok is_ws (unq o (Some (c :: in_progress h))) rest.
  Proof using bsl_not_ws.
    destruct (is_quote c || is_ws c || (c =? BSL)) eqn:E.
    - cbn [app tok unq expect_ws andb]. rewrite bsl_not_ws. reflexivity.
    - apply orb_false_iff in E. destruct E as (E & E3). apply orb_false_iff in E. destruct E as (E1 & E2).
      cbn [app tok unq expect_ws andb]. rewrite E1, E2, E3. reflexivity.
  Qed.

  Lemma read_escaped : forall w c o h rest,
    tok is_ws (unq o h) (escape is_ws (c :: w) ++ rest) = tok is_ws (unq o (Some (rev (c :: w) ++ in_progress h))) rest.
  Proof using bsl_not_ws.
    induction w as [|d w IH]; intros c o h rest; cbn [escape] in *; rewrite <- app_assoc, read_char.
    - reflexivity.
    - rewrite IH. cbn [rev]. rewrite <- !app_assoc. reflexivity.
  Qed.

  Lemma read_sep sp o l rest : is_ws sp = true -> is_quote sp = false ->
    tok is_ws (unq o (Some l)) (sp :: rest) = tok is_ws (unq (rev l :: o) None) rest.
  Proof. intros H1 H2. cbn [tok unq expect_ws andb]. rewrite H2, H1. reflexivity. Qed.

  Theorem tokenizer_round_trip sp : is_ws sp = true -> is_quote sp = false ->
    forall ws o, Forall (fun w => w <> []) ws ->
      tok is_ws (unq o None) (flat_map (fun w => escape is_ws w ++ [sp]) ws) = Ok (rev o ++ ws).
  Proof using bsl_not_ws.
    intros H1 H2. induction ws as [|w r IH]; intros o Hne; cbn [flat_map].
    - rewrite app_nil_r. reflexivity.
    - inversion Hne as [|? ? Hw Hr]. destruct w as [|c w']; [contradiction|]. rewrite <- app_assoc, read_escaped.
      cbn [in_progress app]. rewrite app_nil_r, read_sep by assumption. rewrite rev_involutive, IH by exact Hr.
      cbn [rev]. rewrite <- app_assoc. reflexivity.
  Qed.
End P.
