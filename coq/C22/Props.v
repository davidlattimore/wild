(* C22 — malformed input produces a diagnostic, never a crash: what can be stated as theorems about the tokenizer model. *)
From Coq Require Import NArith List.
From WV Require Import C22.Model C22.Proofs.
Import ListNotations.
Open Scope N_scope.

(* The tokenizer is a total function: every string of code points, however malformed, is mapped to a list of arguments
   or to one of four errors (it is defined by structural recursion; this statement only records the result type). *)
Theorem C22_tokenizer_always_answers :
  forall is_ws input, (exists args, arguments_from_string is_ws input = Ok args) \/ (exists e, arguments_from_string is_ws input = Err e).
Proof. intros is_ws input. destruct (arguments_from_string is_ws input) as [a|e]; [left; exists a|right; exists e]; reflexivity. Qed.
Print Assumptions C22_tokenizer_always_answers.

(* and it is not trivially always an error: every list of non-empty arguments, over all code points, written with a
   backslash before each quote, white-space character and backslash and separated by white space, reads back exactly *)
Theorem C22_tokenizer_reads_back_escaped_arguments :
  forall is_ws sp, is_ws BSL = false -> is_ws sp = true -> is_quote sp = false ->
  forall ws, Forall (fun w => w <> []) ws ->
    arguments_from_string is_ws (flat_map (fun w => escape is_ws w ++ [sp]) ws) = Ok ws.
Proof. intros is_ws sp Hb H1 H2 ws Hne. exact (tokenizer_round_trip is_ws Hb sp H1 H2 ws [] Hne). Qed.
Print Assumptions C22_tokenizer_reads_back_escaped_arguments.

(* the four errors are all reachable, each by a malformed input *)
Theorem C22_each_error_has_an_input :
  let ws := fun c => c =? 32 in
  arguments_from_string ws [34; 97] = Err MissingClosingQuote /\
  arguments_from_string ws [34; 97; 34; 98] = Err ExpectedWhitespace /\
  arguments_from_string ws [97; 34] = Err MissingOpeningQuote /\
  arguments_from_string ws [97; 92] = Err InvalidEscape.
Proof. vm_compute. repeat split. Qed.
Print Assumptions C22_each_error_has_an_input.
