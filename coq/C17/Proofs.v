From Coq Require Import NArith List Lia.
From WV Require Import C17.Model.
Open Scope N_scope.

Lemma all_phases_complete p : In p all_phases.
Proof. destruct p; cbn; tauto. Qed.
Lemma all_faults_complete f : In f all_faults.
Proof. destruct f; cbn; tauto. Qed.

Lemma all_runs_complete fork flt : In (fork, flt) all_runs.
Proof.
  apply in_flat_map. exists fork. split; [destruct fork; cbn; tauto|].
  destruct flt as [[p f]|]; [right|left; reflexivity].
  apply in_flat_map. exists p. split; [apply all_phases_complete|].
  apply (in_map (fun f0 => (fork, Some (p, f0)))). apply all_faults_complete.
Qed.

Definition run_ok (fixed : bool) (r : bool * option (phase * fault)) : bool :=
  let '(fork, flt) := r in implb (exit_zero (final_status fixed fork flt)) (output_complete fork flt).

Lemma fixed_all_ok : forallb (run_ok true) all_runs = true.
Proof. vm_compute. reflexivity. Qed.

Lemma exit0_implies_written fork flt :
  exit_zero (final_status true fork flt) = true -> output_complete fork flt = true.
Proof.
  intros H. pose proof fixed_all_ok as A. rewrite forallb_forall in A.
  specialize (A _ (all_runs_complete fork flt)). unfold run_ok in A. rewrite H in A. exact A.
Qed.

Lemma parent_exit_zero_iff st :
  parent_exit true false st = 0 <-> (WIFEXITED st = true /\ WEXITSTATUS st = 0).
Proof.
  unfold parent_exit. destruct (WIFEXITED st) eqn:E; split.
  - intros H. split; [reflexivity|assumption].
  - intros [_ H]. assumption.
  - intros H. lia.
  - intros [H _]. discriminate.
Qed.
