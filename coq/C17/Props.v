From Coq Require Import NArith.
From WV Require Import C17.Model C17.Proofs.
Open Scope N_scope.

(* exit status 0 only if the output was completely written: every phase boundary x every fault kind x fork/no-fork *)
Theorem C17_exit0_implies_written : forall fork flt,
  exit_zero (final_status true fork flt) = true -> output_complete fork flt = true.
Proof. exact exit0_implies_written. Qed.

Theorem C17_fault_gives_nonzero : forall fork p f,
  reached fork p = true -> phase_ix p < 7 -> exit_zero (final_status true fork (Some (p, f))) = false.
Proof.
  (* before the success byte the parent decodes the worker's status, and no fault's status decodes to 0 *)
  intros fork p f Hr Hp. unfold final_status, worker_status, byte_sent.
  replace (7 <=? phase_ix p) with false by (symmetry; apply N.leb_gt; exact Hp).
  destruct fork; rewrite Hr; destruct f; reflexivity.
Qed.

(* for EVERY wait status of the child (not only the modelled faults): without the success byte the parent exits 0
   only if the child itself exited normally with code 0 *)
Theorem C17_parent_exit_zero_iff : forall st,
  parent_exit true false st = 0 <-> (WIFEXITED st = true /\ WEXITSTATUS st = 0).
Proof. exact parent_exit_zero_iff. Qed.

(* the pinned tree (WEXITSTATUS applied to any wait status): the worker is killed before it has written anything and
   the parent exits 0 *)
Theorem C17_pinned_tree_refuted :
  exit_zero (final_status false true (Some (Loaded, FKill))) = true /\
  output_complete true (Some (Loaded, FKill)) = false.
Proof. vm_compute. split; reflexivity. Qed.

Print Assumptions C17_exit0_implies_written.
Print Assumptions C17_fault_gives_nonzero.
Print Assumptions C17_parent_exit_zero_iff.
Print Assumptions C17_pinned_tree_refuted.
