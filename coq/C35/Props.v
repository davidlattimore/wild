(* C35 — jobserver tokens are conserved. *)
From Coq Require Import List Lia.
From WV Require Import C35.Model C35.Proofs.
Import ListNotations.

(* Whatever the other jobs do and however wild is interleaved with them: once wild has exited after a successful link, a
   link error or a panic, it holds nothing, so the jobserver has its n tokens minus what the OTHER jobs still hold. *)
Theorem C35_tokens_returned_after_exit :
  forall c n sched, let s := run c n sched in
    result c <> Killed -> pc s = Exited ->
    held s = 0 /\ pool s + (env_taken s - env_given s) = n.
Proof.
  intros c n sched s Hk He. destruct (inv_run c n sched) as (Hc & Hg & _ & Hx). fold s in Hc, Hg, Hx.
  rewrite He in Hx. specialize (Hx Hk). split; [exact Hx|lia].
Qed.
Print Assumptions C35_tokens_returned_after_exit.

(* At every moment: tokens are conserved (none invented, none lost) and, when the jobserver decides the thread count,
   wild runs at most one thread more than the tokens it holds. *)
Theorem C35_threads_bounded_by_tokens_held :
  forall c n sched, let s := run c n sched in
    pool s + held s + env_taken s = n + env_given s /\
    (explicit_threads c = None -> jobserver c = true -> threads s <= S (held s)) /\
    ((explicit_threads c <> None \/ jobserver c = false) -> held s = 0).
Proof.
  intros c n sched s. destruct (inv_run c n sched) as (Hc & _ & Ht & _). fold s in Hc, Ht. unfold uses_js in Ht.
  split; [exact Hc|]. destruct (explicit_threads c), (jobserver c); intuition congruence.
Qed.
Print Assumptions C35_threads_bounded_by_tokens_held.

(* wild does get to the end (the acquisition loop stops when the pipe is empty): pool + 4 of its own steps suffice *)
Theorem C35_wild_reaches_exit :
  forall c n, pc (wild_n c (n + 4) (init n)) = Exited.
Proof. intros c n. apply wild_terminates. cbn. lia. Qed.
Print Assumptions C35_wild_reaches_exit.

(* Outside the property's quantifier: a process killed while linking never runs its destructors and the tokens are gone *)
Theorem C35_refuted_when_killed :
  let c := {| explicit_threads := None; jobserver := true; ncpu := 8; result := Killed |} in
  let s := run c 3 [Wild; Wild; Wild; Wild; Wild; Wild] in
  pc s = Exited /\ held s = 3 /\ pool s = 0.
Proof. vm_compute. repeat split. Qed.
Print Assumptions C35_refuted_when_killed.

Example C35_example :
  let c := {| explicit_threads := None; jobserver := true; ncpu := 8; result := LinkError |} in
  let s := run c 4 [Wild; EnvTake; Wild; Wild; Wild; Wild; EnvGive; Wild; Wild; Wild] in
  (pc s, pool s, held s, env_taken s, env_given s) = (Exited, 4, 0, 1, 1).
Proof. vm_compute. reflexivity. Qed.
