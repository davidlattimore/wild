From Coq Require Import List Lia Arith.
From WV Require Import C35.Model.

Definition uses_js (c : cfg) : bool := match explicit_threads c with None => jobserver c | Some _ => false end.

(* tokens are neither created nor destroyed; wild holds some only if it asked the jobserver, and then runs at most
   one thread more than it holds; what else is known depends on where wild is *)
Definition inv (c : cfg) (n : nat) (s : st) : Prop :=
  pool s + held s + env_taken s = n + env_given s /\ env_given s <= env_taken s /\
  (if uses_js c then threads s <= S (held s) else held s = 0) /\
  match pc s with
  | Start => held s = 0 /\ threads s = 1
  | Acquiring => uses_js c = true /\ threads s = 1
  | Exited => result c <> Killed -> held s = 0
  | _ => True
  end.

Lemma inv_init c n : inv c n (init n).
Proof. unfold inv. cbn. destruct (uses_js c); auto with arith. Qed.

(* the state after a step is a record: its fields compute, and what is left is arithmetic on what was known *)
Local Ltac fields := cbn [pool held threads pc env_taken env_given]; repeat split; auto; try lia.

Lemma inv_step c n s a : inv c n s -> inv c n (step c s a).
Proof.
  unfold inv. intros (Hc & Hg & Ht & Hp). destruct a; cbn [step].
  - destruct (pool s) eqn:Ep; fields.
  - destruct (Nat.ltb_spec (env_given s) (env_taken s)); fields.
  - (* wild: each phase reads its own part of the configuration *)
    unfold wild_step. destruct (pc s) eqn:Epc.
    + unfold uses_js in *. destruct (explicit_threads c); [|destruct (jobserver c)]; fields.
    + destruct Hp as [Hj Hp]. rewrite Hj in *. destruct (pool s) eqn:Ep; fields.
    + destruct (uses_js c), (result c); fields.
      (* left over: killed while holding tokens, the one way to reach Exited with held s > 0; the invariant
         asks held s = 0 there only of the other outcomes *)
      contradiction.
    + destruct (uses_js c); fields.
    + rewrite Epc. auto.
Qed.

Lemma inv_run c n sched : inv c n (run c n sched).
Proof.
  unfold run. generalize (inv_init c n). generalize (init n).
  induction sched as [|a r IH]; intros s Hs; cbn [fold_left]; [exact Hs|]. apply IH, inv_step, Hs.
Qed.

(* The measure: pool s + 4 steps from the start (one to choose the mode, one per token in the pipe and one to find
   it empty, one to link, one to unwind). *)
Lemma wild_terminates c : forall k s, pool s + 4 <= k + (match pc s with Start => 0 | Acquiring => 1 | Running => pool s + 2 | Unwinding => pool s + 3 | Exited => pool s + 4 end) ->
  pc (wild_n c k s) = Exited.
Proof.
  induction k as [|k IH]; intros s H; cbn [wild_n].
  - destruct (pc s) eqn:E; try lia. reflexivity.
  - apply IH. unfold wild_step. destruct (pc s) eqn:E.
    + destruct (explicit_threads c); [cbn; lia|]. destruct (jobserver c); cbn; lia.
    + destruct (pool s) as [|p] eqn:Ep; cbn; lia.
    + destruct (result c); cbn; lia.
    + cbn. lia.
    + rewrite E. lia.
Qed.
