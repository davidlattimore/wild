From Coq Require Import ZArith List Lia Sorting.Sorted Sorting.Permutation.
From WV Require Import Base.Sorting C10.Model.
Open Scope Z_scope.

Theorem table_perm hdr fdes : Permutation (table hdr fdes) (map entry_of (filter kept fdes)).
Proof. symmetry. apply isort_perm. Qed.

Definition disjoint (t : list hentry) : Prop :=
  forall a b, In a t -> In b t -> a <> b -> h_start a + h_len a <= h_start b \/ h_start b + h_len b <= h_start a.

Lemma hentry_eq_dec (a b : hentry) : {a = b} + {a <> b}.
Proof. decide equality; apply Z.eq_dec. Qed.

(* the scan ends on h when every entry is h itself, starts before h (and is passed over), or starts beyond pc (and
   stops the scan, with h as the best so far) *)
Lemma last_le_spec t pc h : forall best,
  StronglySorted (fun a b => h_start a <= h_start b) t ->
  (forall a, In a t -> a = h \/ h_start a < h_start h \/ pc < h_start a) ->
  h_start h <= pc ->
  In h t \/ (best = Some h /\ forall a, In a t -> h_start h <= h_start a) ->
  last_le t pc best = Some h.
Proof.
  induction t as [|x r IH]; intros best Hs Htri Hle Hh.
  - destruct Hh as [[]|[-> _]]. reflexivity.
  - inversion Hs as [|? ? Hs' Hall]; subst. rewrite Forall_forall in Hall. cbn [last_le].
    assert (Htri' : forall a, In a r -> a = h \/ h_start a < h_start h \/ pc < h_start a)
      by (intros a Ha; apply Htri; right; exact Ha).
    destruct (Htri x (or_introl eq_refl)) as [->|[Hlt|Hgt]].
    + destruct (Z.leb_spec (h_start h) pc); [|lia]. apply IH; try assumption. right. split; [reflexivity|exact Hall].
    + destruct (Z.leb_spec (h_start x) pc); [|lia]. apply IH; try assumption. left.
      destruct Hh as [[->|Hin]|[_ Hmin]]; [lia|exact Hin|]. specialize (Hmin x (or_introl eq_refl)). lia.
    + destruct (Z.leb_spec (h_start x) pc); [lia|].
      destruct Hh as [[->|Hin]|[-> _]]; [lia| |reflexivity]. specialize (Hall h Hin). lia.
Qed.

Theorem unwinder_finds_the_fde t pc h :
  StronglySorted (fun a b => h_start a <= h_start b) t -> disjoint t ->
  (forall a, In a t -> 0 < h_len a) ->
  In h t -> h_start h <= pc < h_start h + h_len h ->
  unwinder_finds t pc = Some (h_fde h).
Proof.
  intros Hs Hd Hlen Hin [Hlo Hhi]. unfold unwinder_finds.
  rewrite (last_le_spec t pc h None Hs); [|  |exact Hlo|left; exact Hin].
  - destruct (Z.ltb_spec pc (h_start h + h_len h)); [reflexivity|lia].
  - intros a Ha. destruct (hentry_eq_dec a h) as [E|Hne]; [left; exact E|right].
    pose proof (Hlen a Ha). destruct (Hd a h Ha Hin Hne); lia.
Qed.
