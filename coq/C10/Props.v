From Coq Require Import ZArith List Lia Sorting.Sorted Sorting.Permutation.
From WV Require Import Base.Sorting C10.Model C10.Proofs.
Import ListNotations.
Open Scope Z_scope.

(* the search table has exactly one entry per FDE whose function's section was loaded and is not empty, nothing else ... *)
Theorem C10_table_is_exactly_the_kept_fdes :
  forall hdr fdes,
    (forall h, In h (table hdr fdes) <-> exists f, In f fdes /\ kept f = true /\ h = entry_of f) /\
    length (table hdr fdes) = length (filter kept fdes).
Proof.
  intros hdr fdes. pose proof (table_perm hdr fdes) as P. split.
  - intros h. split.
    + intros Hh. apply (Permutation_in _ P), in_map_iff in Hh. destruct Hh as (f & <- & Hf).
      apply filter_In in Hf. exists f. split; [apply Hf|]. split; [apply Hf|reflexivity].
    + intros (f & Hin & Hk & ->). apply (Permutation_in _ (Permutation_sym P)), in_map, filter_In. split; assumption.
  - rewrite (Permutation_length P). apply map_length.
Qed.
Print Assumptions C10_table_is_exactly_the_kept_fdes.

(* ... and is sorted by start address, wherever .eh_frame_hdr sits relative to the code (the sort key is the SIGNED
   hdr-relative offset) *)
Theorem C10_table_sorted_by_start_address :
  forall hdr fdes, StronglySorted (fun a b => h_start a <= h_start b) (table hdr fdes).
Proof.
  intros hdr fdes. unfold table.
  pose proof (isort_sorted (fun h => h_start h - hdr) (map entry_of (filter kept fdes))) as H.
  induction H as [|a l Hs IH Hall]; constructor; [exact IH|].
  eapply Forall_impl; [|exact Hall]. unfold le_key. lia.
Qed.
Print Assumptions C10_table_sorted_by_start_address.

(* hence the unwinder finds the FDE of every pc inside a retained function (functions do not overlap) *)
Theorem C10_unwinder_finds_the_fde :
  forall hdr fdes pc h,
    disjoint (table hdr fdes) -> (forall a, In a (table hdr fdes) -> 0 < h_len a) ->
    In h (table hdr fdes) -> h_start h <= pc < h_start h + h_len h ->
    unwinder_finds (table hdr fdes) pc = Some (h_fde h).
Proof. intros hdr fdes pc h Hd Hl Hin Hr. apply unwinder_finds_the_fde; [apply C10_table_sorted_by_start_address|assumption..]. Qed.
Print Assumptions C10_unwinder_finds_the_fde.

(* an ordering by the UNSIGNED 32-bit offset (what a careless sort key gives) breaks it when code lies below the header *)
Theorem C10_refuted_for_an_unsigned_sort_key :
  let hdr := 0x400000 in
  let fdes := [ {| f_sec_addr := Some 0x1000000; f_sec_size := 16; f_off := 0; f_len := 16; f_id := 1 |};
                {| f_sec_addr := Some 0x10000; f_sec_size := 16; f_off := 0; f_len := 16; f_id := 2 |} ] in
  let t := C30.Model.isort (fun h => (h_start h - hdr) mod 2 ^ 32) (map entry_of (filter kept fdes)) in
  unwinder_finds t 0x10004 = None /\ unwinder_finds (table hdr fdes) 0x10004 = Some 2.
Proof. vm_compute. split; reflexivity. Qed.
Print Assumptions C10_refuted_for_an_unsigned_sort_key.
