(* C27 — partial links are transparent. *)
From Coq Require Import ZArith Lia.
From WV Require Import C27.Model C27.Proofs.
Open Scope Z_scope.

(* Every relocation of every input, resolved by the final link through the relocatable object, has the value the psABI
   formula gives for the ORIGINAL reference at the places the original sections and symbols finally occupy: S + A, minus
   P for pc-relative kinds.  Holds for every grouping (merged, off_in), every placement by the final link, section-symbol
   and named targets, symbols defined inside or outside the group. *)
Theorem C27_relocation_through_a_partial_link_is_the_direct_one :
  forall g p defs r,
    resolve p (fun n => rewrite_sym g (defs n)) (rewrite g r) = resolve (through g p) defs r.
Proof.
  intros g p defs r. unfold resolve, rewrite, through, sym_value, rewrite_sym. cbn [r_sec r_off r_tgt r_add r_pc addr ext].
  destruct (r_tgt r) as [i|n]; [destruct (r_pc r); lia|].
  destruct (defs n) as [[i v]|]; destruct (r_pc r); lia.
Qed.
Print Assumptions C27_relocation_through_a_partial_link_is_the_direct_one.

(* Partial links of partial links: the same, with the groupings composed. *)
Theorem C27_nested_partial_links :
  forall g1 g2 p defs r,
    resolve p (fun n => rewrite_sym g2 (rewrite_sym g1 (defs n))) (rewrite g2 (rewrite g1 r)) = resolve (through (compose g1 g2) p) defs r.
Proof.
  intros g1 g2 p defs r. rewrite rewrite_compose.
  rewrite (resolve_ext p _ (fun n => rewrite_sym (compose g1 g2) (defs n))) by (intros n; apply rewrite_sym_compose).
  apply C27_relocation_through_a_partial_link_is_the_direct_one.
Qed.
Print Assumptions C27_nested_partial_links.

(* the addend adjustment for section-symbol targets is what makes it true: without it a reference into the second of two
   concatenated sections lands in the first *)
Theorem C27_refuted_without_the_addend_adjustment :
  let g := {| merged := fun _ => 0%nat; off_in := fun i => match i with 0%nat => 0 | _ => 0x40 end |} in
  let p := {| addr := fun _ => 0x1000; ext := fun _ => 0 |} in
  let r := {| r_sec := 0%nat; r_off := 8; r_tgt := TSec 1%nat; r_add := 4; r_pc := false |} in
  resolve p (fun _ => None) (rewrite_no_addend_fix g r) = 0x1004 /\ resolve (through g p) (fun _ => None) r = 0x1044 /\
  resolve p (fun _ => None) (rewrite g r) = 0x1044.
Proof. vm_compute. repeat split. Qed.
Print Assumptions C27_refuted_without_the_addend_adjustment.
