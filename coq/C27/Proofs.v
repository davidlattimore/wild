From Coq Require Import ZArith Lia.
From WV Require Import C27.Model.
Open Scope Z_scope.

Definition compose (g1 g2 : group) : group :=
  {| merged := fun i => merged g2 (merged g1 i); off_in := fun i => off_in g2 (merged g1 i) + off_in g1 i |}.
Lemma rewrite_compose g1 g2 r : rewrite g2 (rewrite g1 r) = rewrite (compose g1 g2) r.
Proof.
  unfold rewrite, compose. cbn [r_sec r_off r_tgt r_add r_pc merged off_in]. destruct (r_tgt r); f_equal; lia.
Qed.
Lemma rewrite_sym_compose g1 g2 d : rewrite_sym g2 (rewrite_sym g1 d) = rewrite_sym (compose g1 g2) d.
Proof. destruct d as [[i v]|]; cbn; [f_equal; f_equal; lia|reflexivity]. Qed.

Lemma resolve_ext p d1 d2 r : (forall n, d1 n = d2 n) -> resolve p d1 r = resolve p d2 r.
Proof. intros H. unfold resolve, sym_value. destruct (r_tgt r) as [i|n]; [reflexivity|]. rewrite H. reflexivity. Qed.
