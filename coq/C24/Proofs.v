From Coq Require Import NArith List Bool.
From WV Require Import C24.Model.
Import ListNotations.
Open Scope N_scope.

Section P.
  Variable env : list N -> word.
  Notation sstep := (sstep env).

  Definition unq (k : option word) (d : list word) : sh := {| md := Unq; cur := k; done := d |}.
  Definition in_progress (k : option word) : word := match k with Some w => w | None => [] end.

  Definition adds (t : list N) (w : word) : Prop :=
    forall k d, fold_left sstep t (unq k d) = unq (Some (in_progress k ++ w)) d.

  Lemma adds_app {t1 w1 t2 w2} : adds t1 w1 -> adds t2 w2 -> adds (t1 ++ t2) (w1 ++ w2).
  Proof. intros H1 H2 k d. rewrite fold_left_app, (H1 k d), (H2 _ d). rewrite app_assoc. reflexivity. Qed.

  Definition in_sq (k : word) (d : list word) : sh := {| md := InSQ; cur := Some k; done := d |}.

  (* opening a quote appends the empty string to the word in progress: hence [w ++ []] for [w], here and below *)
  Lemma in_sq_body : forall w k d, fold_left sstep (squote_body w) (in_sq k d) = in_sq (k ++ w) d.
  Proof.
    induction w as [|c r IH]; intros k d; cbn [squote_body]; [rewrite app_nil_r; reflexivity|].
    assert (Hc : fold_left sstep (if c =? SQ then [SQ; BSL; SQ; SQ] else [c]) (in_sq k d) = in_sq (k ++ [c]) d).
    { destruct (N.eqb_spec c SQ) as [->|Hne].
      - (* '\'' closes the quote, reads an escaped quote outside, and opens a quote again *)
        change (in_sq ((k ++ [SQ]) ++ []) d = in_sq (k ++ [SQ]) d). rewrite app_nil_r. reflexivity.
      - apply N.eqb_neq in Hne. cbn [fold_left]. unfold Model.sstep. cbn [md in_sq]. rewrite Hne. reflexivity. }
    rewrite fold_left_app, Hc, IH, <- app_assoc. reflexivity.
  Qed.

  Lemma adds_squote w : adds (squote w) w.
  Proof.
    intros k d. unfold squote. cbn [fold_left]. rewrite fold_left_app.
    replace (sstep (unq k d) SQ) with (in_sq (in_progress k) d)
      by (destruct k as [v|]; [change (in_sq v d = in_sq (v ++ []) d); rewrite app_nil_r|]; reflexivity).
    rewrite in_sq_body. reflexivity.
  Qed.

  Lemma plain_not_special c : is_plain_char c = true ->
    (c =? SQ) = false /\ (c =? DQ) = false /\ (c =? BSL) = false /\ (c =? SP) = false /\ (c =? NL) = false /\ (c =? TAB) = false.
  Proof. intros H. repeat split; apply N.eqb_neq; intros ->; discriminate H. Qed.

  Lemma adds_plain : forall w, forallb is_plain_char w = true -> w <> [] -> adds w w.
  Proof.
    intros w Hp Hne k d. revert k. induction w as [|c r IH]; intros k; [contradiction|].
    cbn [forallb] in Hp. apply andb_true_iff in Hp. destruct Hp as (Hc & Hr).
    destruct (plain_not_special c Hc) as (E1 & E2 & E3 & E4 & E5 & E6).
    assert (E : sstep (unq k d) c = unq (Some (in_progress k ++ [c])) d).
    { unfold Model.sstep. cbn [md unq]. rewrite E1, E2, E3, E4, E5, E6. destruct k; reflexivity. }
    cbn [fold_left]. rewrite E. destruct r; [reflexivity|]. rewrite IH by (auto; discriminate).
    cbn [in_progress]. rewrite <- app_assoc. reflexivity.
  Qed.

  Lemma adds_shell_quote w : adds (shell_quote w) w.
  Proof.
    unfold shell_quote. destruct (forallb is_plain_char w) eqn:Ep; [|apply adds_squote].
    destruct w; [apply adds_squote|]. apply adds_plain; [exact Ep|discriminate].
  Qed.

  Lemma adds_D : adds (var_ref D_NAME) (env D_NAME).
  Proof. intros [w|] d; [rewrite <- (app_nil_r w) at 2|]; reflexivity. Qed.
  Lemma adds_OUT : adds (var_ref OUT_NAME) (env OUT_NAME).
  Proof. intros [w|] d; [rewrite <- (app_nil_r w) at 2|]; reflexivity. Qed.
  Lemma adds_slash : adds [SLASH] [SLASH].
  Proof. intros [w|] d; reflexivity. Qed.

  (* through finish_word: the last of the words ws may still be open *)
  Definition holds (s : sh) (ws : list word) : Prop := md s = Unq /\ rev (done (finish_word s)) = ws.

  Lemma read_piece p s ws : holds s ws -> holds (fold_left sstep (SEP ++ render_piece p) s) (ws ++ value env p).
  Proof.
    destruct s as [m k d]. intros [Hm Hw]. cbn in Hm. subst m. fold (unq k d) in *.
    rewrite fold_left_app.
    replace (fold_left sstep SEP (unq k d)) with (unq None (rev ws)) by (rewrite <- Hw, rev_involutive; destruct k; reflexivity).
    assert (H1 : forall t w, adds t w -> holds (fold_left sstep t (unq None (rev ws))) (ws ++ [w])).
    { intros t w H. rewrite (H None (rev ws)). split; [reflexivity|]. cbn. rewrite rev_involutive. reflexivity. }
    destruct p as [w|rel|pre rel|]; cbn [render_piece value].
    - apply H1, adds_shell_quote.
    - apply H1, (adds_app adds_D), (adds_app adds_slash), adds_shell_quote.
    - apply H1, (adds_app (adds_shell_quote pre)), (adds_app adds_D), (adds_app adds_slash), adds_shell_quote.
    - (* "-o" and the blank after it, read from between words: one finished word *)
      rewrite fold_left_app. cbn [fold_left app]. change (sstep _ SP) with (unq None ([45; 111] :: rev ws)).
      rewrite (adds_OUT None). split; [reflexivity|]. cbn. rewrite rev_involutive, <- app_assoc. reflexivity.
  Qed.
End P.
