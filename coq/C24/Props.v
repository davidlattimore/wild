(* C24 — save-dir bundles replay to an identical output: the property theorems for the run-with command line. *)
From Coq Require Import NArith List.
From WV Require Import C24.Model C24.Proofs.
Import ListNotations.
Open Scope N_scope.

(* Whatever bytes the arguments and the copied files' names contain, and whatever D and OUT expand to (spaces included),
   the shell reads the `exec` line of run-with back as exactly the recorded command: every passed-through argument
   unchanged, every copied input as <D>/<its path in the bundle>, the output as -o <OUT>. *)
Theorem C24_shell_reads_back_the_recorded_command :
  forall (env : list N -> word) (ps : list piece),
    read_words env (render ps) = flat_map (value env) ps.
Proof.
  intros env ps. unfold read_words, render. rewrite fold_left_app. fold (unq None []).
  enough (H : forall s ws, holds s ws ->
            holds (fold_left (sstep env) (flat_map (fun p => SEP ++ render_piece p) ps) s) (ws ++ flat_map (value env) ps)).
  { (* the closing newline only ends the last word *)
    destruct (H (unq None []) [] (conj eq_refl eq_refl)) as [Hm E]. cbn [app] in E. rewrite <- E.
    destruct (fold_left (sstep env) _ (unq None [])) as [m k d]. cbn in Hm. subst m. destruct k; reflexivity. }
  induction ps as [|p r IH]; intros s ws H; cbn [flat_map]; [rewrite app_nil_r; exact H|].
  rewrite fold_left_app, app_assoc. apply IH, read_piece, H.
Qed.
Print Assumptions C24_shell_reads_back_the_recorded_command.

(* quoting alone: one word, same bytes *)
Theorem C24_quoted_argument_is_one_word :
  forall env w, read_words env (render [Arg w]) = [w].
Proof. intros env w. rewrite C24_shell_reads_back_the_recorded_command. reflexivity. Qed.
Print Assumptions C24_quoted_argument_is_one_word.

(* the rendering wild used before (backslash before blank, dollar and backslash only; copied paths not quoted) loses
   arguments with a quote or a semicolon, and splits copied paths with a blank *)
Theorem C24_refuted_for_the_old_escaping :
  let env := fun _ : list N => [100] in
  read_words env (SEP ++ old_escape [97; 39; 98] ++ [NL]) <> [[97; 39; 98]] /\
  read_words env (SEP ++ [DOLLAR; 68; SLASH] ++ [97; SP; 98] ++ [NL]) <> [[100; SLASH; 97; SP; 98]].
Proof. vm_compute. split; discriminate. Qed.
Print Assumptions C24_refuted_for_the_old_escaping.

Example C24_example :
  read_words (fun n => if list_eq_dec N.eq_dec n D_NAME then [47; 115; 32; 118] else [111; 32; 120])
             (render [Copied [97; 32; 39; 98]; OutputArg; Arg [45; 45; 120]; Arg []; CopiedAfter [45; 84; 61] [115; 36; 99]])
  = [[47; 115; 32; 118; 47; 97; 32; 39; 98]; [45; 111]; [111; 32; 120]; [45; 45; 120]; []; [45; 84; 61; 47; 115; 32; 118; 47; 115; 36; 99]].
Proof. vm_compute. reflexivity. Qed.
