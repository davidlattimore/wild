(* List facts that Coq 8.16's List.v lacks and several directories need. *)
From Coq Require Import List.
Import ListNotations.

Lemma skipn_skipn {A} a b (l : list A) : skipn a (skipn b l) = skipn (b + a) l.
Proof. revert l. induction b as [|b IH]; intros [|x l]; cbn [skipn Nat.add]; rewrite ?skipn_nil; auto. Qed.

Lemma nth_skipn {A} n j (l : list A) d : nth j (skipn n l) d = nth (n + j) l d.
Proof. revert l. induction n as [|n IH]; intros [|x l]; cbn [skipn Nat.add nth]; auto. destruct j; reflexivity. Qed.

Lemma NoDup_app {A} (l1 l2 : list A) :
  NoDup l1 -> NoDup l2 -> (forall x, In x l1 -> In x l2 -> False) -> NoDup (l1 ++ l2).
Proof.
  intros H1 H2 Hd. induction H1 as [|a l1 Ha _ IH]; [exact H2|]. cbn [app]. constructor.
  - intros Hin. apply in_app_or in Hin. destruct Hin as [Hin|Hin]; [exact (Ha Hin)|exact (Hd a (or_introl eq_refl) Hin)].
  - apply IH. intros x Hx. apply Hd. right; exact Hx.
Qed.

Lemma NoDup_snoc {A} (l : list A) x : NoDup l -> ~ In x l -> NoDup (l ++ [x]).
Proof.
  intros Hl Hx. apply NoDup_app; [exact Hl|constructor; [intros []|constructor]|].
  intros y Hy [<-|[]]. exact (Hx Hy).
Qed.

Lemma existsb_ext_in {A} (f g : A -> bool) l : (forall x, In x l -> f x = g x) -> existsb f l = existsb g l.
Proof.
  induction l as [|a l IH]; intros H; cbn [existsb]; [reflexivity|].
  rewrite (H a (or_introl eq_refl)), IH; [reflexivity|]. intros x Hx. apply H. right; exact Hx.
Qed.

Lemma existsb_eqb_In {A} (eqb : A -> A -> bool) (eqb_eq : forall a b, eqb a b = true <-> a = b) x l :
  existsb (eqb x) l = true <-> In x l.
Proof.
  rewrite existsb_exists. split.
  - intros (y & Hy & E). apply eqb_eq in E. subst y. exact Hy.
  - intros H. exists x. split; [exact H|apply eqb_eq; reflexivity].
Qed.
