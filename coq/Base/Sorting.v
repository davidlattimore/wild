(* The stable insertion sort on an integer key, stated about C30.Model.insert / isort; C06.Model.sort_by and
   C26.Model.isort are the same fixpoints up to conversion, so the lemmas apply to them as they are. *)
From Coq Require Import ZArith List Lia Sorting.Permutation Sorting.Sorted.
From WV Require Import C30.Model.
Local Open Scope Z_scope.

Section Isort.
  Context {A : Type} (key : A -> Z).
  Definition le_key (x y : A) : Prop := key x <= key y.

  Lemma insert_perm x l : Permutation (x :: l) (insert key x l).
  Proof.
    induction l as [|y r IH]; cbn [insert]; [reflexivity|]. destruct (key x <=? key y); [reflexivity|].
    rewrite perm_swap. apply perm_skip. exact IH.
  Qed.
  Lemma isort_perm l : Permutation l (isort key l).
  Proof. induction l as [|x r IH]; cbn [isort]; [constructor|]. rewrite <- insert_perm. apply perm_skip. exact IH. Qed.

  Lemma isort_in l y : In y (isort key l) <-> In y l.
  Proof. split; apply Permutation_in; [symmetry|]; apply isort_perm. Qed.

  Lemma insert_sorted x l : StronglySorted le_key l -> StronglySorted le_key (insert key x l).
  Proof.
    induction 1 as [|y r Hr IH Hall]; cbn [insert]; [repeat constructor|].
    destruct (Z.leb_spec (key x) (key y)) as [Hle|Hgt].
    - repeat constructor; [exact Hr|exact Hall|exact Hle|].
      eapply Forall_impl; [|exact Hall]. unfold le_key. lia.
    - constructor; [exact IH|]. eapply Permutation_Forall; [apply insert_perm|].
      constructor; [unfold le_key; lia|exact Hall].
  Qed.
  Lemma isort_sorted l : StronglySorted le_key (isort key l).
  Proof. induction l; cbn [isort]; [constructor|apply insert_sorted; assumption]. Qed.

  Lemma sorted_perm_eq : forall l l',
    (forall x y, In x l -> In y l -> key x = key y -> x = y) ->
    StronglySorted le_key l -> StronglySorted le_key l' -> Permutation l l' -> l = l'.
  Proof.
    induction l as [|x r IH]; intros l' Hinj Hs Hs' Hp.
    - apply Permutation_nil in Hp. subst. reflexivity.
    - destruct l' as [|y r']; [apply Permutation_sym, Permutation_nil in Hp; discriminate|].
      inversion Hs as [|? ? Hr Hall]; subst. inversion Hs' as [|? ? Hr' Hall']; subst.
      assert (Hy : In y (x :: r)) by (eapply Permutation_in; [symmetry; exact Hp|left; reflexivity]).
      assert (Hx : In x (y :: r')) by (eapply Permutation_in; [exact Hp|left; reflexivity]).
      (* the head of either list is a lower bound of the other list: equal keys, hence equal heads *)
      assert (x = y).
      { apply Hinj; [left; reflexivity|exact Hy|].
        rewrite Forall_forall in Hall, Hall'. unfold le_key in *.
        destruct Hy as [->|Hy]; [reflexivity|]. destruct Hx as [->|Hx]; [reflexivity|].
        specialize (Hall _ Hy). specialize (Hall' _ Hx). lia. }
      subst y. f_equal. apply IH; [|exact Hr|exact Hr'|eapply Permutation_cons_inv; exact Hp].
      intros a b Ha Hb. apply Hinj; right; assumption.
  Qed.

  Lemma isort_perm_eq l l' :
    (forall x y, In x l -> In y l -> key x = key y -> x = y) -> Permutation l l' -> isort key l = isort key l'.
  Proof.
    intros Hinj Hp. apply sorted_perm_eq; [|apply isort_sorted|apply isort_sorted|].
    - intros x y Hx Hy. apply Hinj; apply isort_in; assumption.
    - rewrite <- (isort_perm l), <- (isort_perm l'). exact Hp.
  Qed.

  Lemma insert_below x l : Forall (le_key x) l -> insert key x l = x :: l.
  Proof. destruct 1 as [|y t Hy _]; cbn [insert]; [reflexivity|]. apply Z.leb_le in Hy. rewrite Hy. reflexivity. Qed.

  (* f need not look at the key: C30 picks out one priority from a list sorted by alignment *)
  Lemma filter_insert_sorted (f : A -> bool) x l : StronglySorted le_key l ->
    filter f (insert key x l) = if f x then insert key x (filter f l) else filter f l.
  Proof.
    induction 1 as [|y t _ IH Hall]; cbn [insert]; [cbn [filter]; destruct (f x); reflexivity|].
    destruct (Z.leb_spec (key x) (key y)) as [Hle|Hgt].
    - change (filter f (x :: y :: t)) with (if f x then x :: filter f (y :: t) else filter f (y :: t)).
      destruct (f x); [|reflexivity]. symmetry. apply insert_below.
      apply (incl_Forall (l1 := y :: t)); [intros z Hz; apply filter_In in Hz; apply Hz|].
      constructor; [exact Hle|]. eapply Forall_impl; [|exact Hall]. unfold le_key. lia.
    - cbn [filter]. rewrite IH. destruct (f y), (f x); cbn [insert]; try reflexivity.
      destruct (Z.leb_spec (key x) (key y)); [lia|reflexivity].
  Qed.

  Lemma filter_isort_comm (f : A -> bool) l : filter f (isort key l) = isort key (filter f l).
  Proof.
    induction l as [|x t IH]; cbn [isort filter]; [reflexivity|].
    rewrite filter_insert_sorted by apply isort_sorted. rewrite IH. destruct (f x); reflexivity.
  Qed.
End Isort.
