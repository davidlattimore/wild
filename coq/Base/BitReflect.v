(* Bit-slice reflection for machine-word functions built from and/or/shift/truncate/sign-extend.
   [bit e i] is a boolean formula over the bits of the variables of the word expression [e] that
   describes bit i of its value ([bit_sound]).  "For all values of the variables, bit i of e1 equals
   bit i of e2" is then decided by normalising the two formulas ([simp]) and comparing them
   syntactically, one position at a time: a finite check whose soundness lemma makes it a proof for
   all inputs, not a sample. *)
From Coq Require Import Arith NArith List Bool Lia.
Open Scope N_scope.

Inductive wexpr :=
| Var (x : nat)
| Const (c : N)
| And (a b : wexpr)
| Or (a b : wexpr)
| Shl (a : wexpr) (k : N)
| Shr (a : wexpr) (k : N)
| Trunc (n : N) (a : wexpr)
| SExt (s : N) (a : wexpr).          (* sign_extend (linker-utils/src/bit_misc.rs): bits above s are OR-ed with bit s *)

Definition env := nat -> N.

Definition sext64 (s x : N) : N :=
  if N.testbit x s then N.lor x (N.ldiff (N.ones 64) (N.ones (s + 1))) else x.

Fixpoint eval (r : env) (e : wexpr) : N :=
  match e with
  | Var x => r x
  | Const c => c
  | And a b => N.land (eval r a) (eval r b)
  | Or a b => N.lor (eval r a) (eval r b)
  | Shl a k => N.shiftl (eval r a) k
  | Shr a k => N.shiftr (eval r a) k
  | Trunc n a => N.land (eval r a) (N.ones n)
  | SExt s a => sext64 s (eval r a)
  end.

Inductive bexpr :=
| BVar (x : nat) (i : N)
| BConst (b : bool)
| BAnd (a b : bexpr)
| BOr (a b : bexpr).

Definition benv := nat -> N -> bool.
Definition bits_of (r : env) : benv := fun x i => N.testbit (r x) i.

Fixpoint beval (r : benv) (b : bexpr) : bool :=
  match b with
  | BVar x i => r x i
  | BConst c => c
  | BAnd a b => beval r a && beval r b
  | BOr a b => beval r a || beval r b
  end.

Fixpoint bit (e : wexpr) (i : N) : bexpr :=
  match e with
  | Var x => BVar x i
  | Const c => BConst (N.testbit c i)
  | And a b => BAnd (bit a i) (bit b i)
  | Or a b => BOr (bit a i) (bit b i)
  | Shl a k => if i <? k then BConst false else bit a (i - k)
  | Shr a k => bit a (i + k)
  | Trunc n a => if i <? n then bit a i else BConst false
  | SExt s a => if i <=? s then bit a i
                else if i <? 64 then BOr (bit a i) (bit a s) else bit a i
  end.

Lemma testbit_ones n i : N.testbit (N.ones n) i = (i <? n).
Proof.
  destruct (N.ltb_spec i n).
  - apply N.ones_spec_low. assumption.
  - apply N.ones_spec_high. assumption.
Qed.

Lemma sext64_spec s x i :
  N.testbit (sext64 s x) i =
  if i <=? s then N.testbit x i
  else if i <? 64 then N.testbit x i || N.testbit x s else N.testbit x i.
Proof.
  unfold sext64. destruct (N.testbit x s) eqn:Hs.
  - rewrite N.lor_spec, N.ldiff_spec, !testbit_ones.
    destruct (N.leb_spec i s); destruct (N.ltb_spec i 64); destruct (N.ltb_spec i (s + 1));
      try lia; rewrite ?orb_false_r; reflexivity.
  - destruct (N.leb_spec i s); destruct (N.ltb_spec i 64); rewrite ?orb_false_r; reflexivity.
Qed.

Theorem bit_sound r e : forall i, N.testbit (eval r e) i = beval (bits_of r) (bit e i).
Proof.
  induction e as [x|c|a IHa b IHb|a IHa b IHb|a IHa k|a IHa k|n a IHa|s a IHa]; intros i; cbn [eval bit].
  - reflexivity.
  - reflexivity.
  - rewrite N.land_spec, IHa, IHb. reflexivity.
  - rewrite N.lor_spec, IHa, IHb. reflexivity.
  - destruct (N.ltb_spec i k).
    + rewrite N.shiftl_spec_low by assumption. reflexivity.
    + rewrite N.shiftl_spec_high' by assumption. apply IHa.
  - rewrite N.shiftr_spec'. apply IHa.
  - rewrite N.land_spec, testbit_ones. destruct (N.ltb_spec i n).
    + rewrite andb_true_r. apply IHa.
    + rewrite andb_false_r. reflexivity.
  - rewrite sext64_spec.
    destruct (N.leb_spec i s); [apply IHa|].
    destruct (N.ltb_spec i 64); rewrite ?IHa; reflexivity.
Qed.

Definition mk_and (a b : bexpr) : bexpr :=
  match a, b with
  | BConst false, _ => BConst false
  | _, BConst false => BConst false
  | BConst true, _ => b
  | _, BConst true => a
  | _, _ => BAnd a b
  end.
Definition mk_or (a b : bexpr) : bexpr :=
  match a, b with
  | BConst true, _ => BConst true
  | _, BConst true => BConst true
  | BConst false, _ => b
  | _, BConst false => a
  | _, _ => BOr a b
  end.
Fixpoint simp (b : bexpr) : bexpr :=
  match b with
  | BAnd x y => mk_and (simp x) (simp y)
  | BOr x y => mk_or (simp x) (simp y)
  | _ => b
  end.

Lemma mk_and_sound r a b : beval r (mk_and a b) = beval r a && beval r b.
Proof.
  destruct a as [x i|[|]|a1 a2|a1 a2]; destruct b as [y j|[|]|b1 b2|b1 b2];
    rewrite ?andb_true_r, ?andb_false_r; reflexivity.
Qed.
Lemma mk_or_sound r a b : beval r (mk_or a b) = beval r a || beval r b.
Proof.
  destruct a as [x i|[|]|a1 a2|a1 a2]; destruct b as [y j|[|]|b1 b2|b1 b2];
    rewrite ?orb_true_r, ?orb_false_r; reflexivity.
Qed.
Lemma simp_sound r b : beval r (simp b) = beval r b.
Proof.
  induction b as [x i|c|a IHa b IHb|a IHa b IHb]; cbn [simp]; try reflexivity.
  - rewrite mk_and_sound, IHa, IHb. reflexivity.
  - rewrite mk_or_sound, IHa, IHb. reflexivity.
Qed.

Fixpoint bexpr_eqb (a b : bexpr) : bool :=
  match a, b with
  | BVar x i, BVar y j => Nat.eqb x y && (i =? j)
  | BConst c, BConst d => Bool.eqb c d
  | BAnd a1 a2, BAnd b1 b2 => bexpr_eqb a1 b1 && bexpr_eqb a2 b2
  | BOr a1 a2, BOr b1 b2 => bexpr_eqb a1 b1 && bexpr_eqb a2 b2
  | _, _ => false
  end.

Lemma bexpr_eqb_sound a : forall b, bexpr_eqb a b = true -> a = b.
Proof.
  induction a as [x i|c|a1 IH1 a2 IH2|a1 IH1 a2 IH2]; intros [y j|d|b1 b2|b1 b2]; cbn; try discriminate.
  - intros H. apply andb_prop in H. destruct H as [H1 H2].
    apply Nat.eqb_eq in H1. apply N.eqb_eq in H2. subst. reflexivity.
  - intros H. apply Bool.eqb_prop in H. subst. reflexivity.
  - intros H. apply andb_prop in H. destruct H as [H1 H2].
    rewrite (IH1 _ H1), (IH2 _ H2). reflexivity.
  - intros H. apply andb_prop in H. destruct H as [H1 H2].
    rewrite (IH1 _ H1), (IH2 _ H2). reflexivity.
Qed.

Fixpoint no_var (x : nat) (b : bexpr) : bool :=
  match b with
  | BVar y _ => negb (Nat.eqb x y)
  | BConst _ => true
  | BAnd a b | BOr a b => no_var x a && no_var x b
  end.

Lemma no_var_sound x b r1 r2 :
  no_var x b = true -> (forall y i, y <> x -> r1 y i = r2 y i) -> beval r1 b = beval r2 b.
Proof.
  intros H Hr. induction b as [y i|c|a IHa b IHb|a IHa b IHb]; cbn in *.
  - apply Hr. apply negb_true_iff in H. apply Nat.eqb_neq in H. congruence.
  - reflexivity.
  - apply andb_prop in H. destruct H. rewrite IHa, IHb by assumption. reflexivity.
  - apply andb_prop in H. destruct H. rewrite IHa, IHb by assumption. reflexivity.
Qed.

Lemma bit_simp_sound r e i : N.testbit (eval r e) i = beval (bits_of r) (simp (bit e i)).
Proof. rewrite simp_sound. apply bit_sound. Qed.

(* The bit positions 0..63 as a literal list: a sweep over [map N.of_nat (seq 0 64)] costs coqchk more for
   turning the unary numerals into binary than for the bit formulas, so [bits_agree_on] sweeps this list.
   [bits_indep_on] keeps the computed spelling, because a theorem of C13 states [indep_ok], which unfolds to it;
   a proof that evaluates it first turns the list into this one by [change]. *)
Definition range64 : list N := Eval vm_compute in map N.of_nat (seq 0 64).

Lemma forallb_range64 (P : N -> bool) i : forallb P range64 = true -> i < 64 -> P i = true.
Proof.
  intros H Hi. apply (proj1 (forallb_forall _ _) H). change range64 with (map N.of_nat (seq 0 64)). apply in_map_iff.
  exists (N.to_nat i). split; [apply N2Nat.id|]. apply in_seq. lia.
Qed.

Definition bits_agree_on (sel : N -> bool) (e1 e2 : wexpr) : bool :=
  forallb (fun i => if sel i then bexpr_eqb (simp (bit e1 i)) (simp (bit e2 i)) else true) range64.

Theorem bits_agree_on_sound sel e1 e2 :
  bits_agree_on sel e1 e2 = true ->
  forall r i, i < 64 -> sel i = true -> N.testbit (eval r e1) i = N.testbit (eval r e2) i.
Proof.
  intros H r i Hi Hs. apply forallb_range64 with (i := i) in H; [|assumption]. rewrite Hs in H.
  rewrite !bit_simp_sound, (bexpr_eqb_sound _ _ H). reflexivity.
Qed.

Definition bits_indep_on (sel : N -> bool) (x : nat) (e : wexpr) : bool :=
  forallb (fun i => if sel i then no_var x (simp (bit e i)) else true) (map N.of_nat (seq 0 64)).

Theorem bits_indep_on_sound sel x e :
  bits_indep_on sel x e = true ->
  forall r1 r2 i, i < 64 -> sel i = true -> (forall y, y <> x -> r1 y = r2 y) ->
  N.testbit (eval r1 e) i = N.testbit (eval r2 e) i.
Proof.
  intros H r1 r2 i Hi Hs Hr. apply forallb_range64 with (i := i) in H; [|assumption]. rewrite Hs in H.
  rewrite !bit_simp_sound. apply (no_var_sound x); [assumption|].
  intros y j Hy. unfold bits_of. rewrite (Hr y Hy). reflexivity.
Qed.

Lemma eval_ext r1 r2 e : (forall x, r1 x = r2 x) -> eval r1 e = eval r2 e.
Proof.
  intros H. induction e as [y|c|a IHa b IHb|a IHa b IHb|a IHa k|a IHa k|n a IHa|s a IHa]; cbn [eval];
    rewrite ?IHa, ?IHb; auto.
Qed.

Fixpoint sub (s : nat -> wexpr) (e : wexpr) : wexpr :=
  match e with
  | Var y => s y
  | Const c => Const c
  | And a b => And (sub s a) (sub s b)
  | Or a b => Or (sub s a) (sub s b)
  | Shl a k => Shl (sub s a) k
  | Shr a k => Shr (sub s a) k
  | Trunc n a => Trunc n (sub s a)
  | SExt n a => SExt n (sub s a)
  end.

Lemma eval_sub r s e : eval r (sub s e) = eval (fun x => eval r (s x)) e.
Proof.
  induction e as [y|c|a IHa b IHb|a IHa b IHb|a IHa k|a IHa k|n a IHa|n a IHa]; cbn [sub eval];
    rewrite ?IHa, ?IHb; reflexivity.
Qed.

Lemma eval_trunc_lt r n a : eval r (Trunc n a) < 2 ^ n.
Proof.
  cbn [eval]. rewrite N.land_ones. apply N.mod_lt. apply N.pow_nonzero. discriminate.
Qed.

Lemma trunc_small v n : v < 2 ^ n -> N.land v (N.ones n) = v.
Proof. intros. rewrite N.land_ones. apply N.mod_small. assumption. Qed.
