From Coq Require Import List Bool Arith Sorting.Sorted.
From WV Require Import C03.Model C03.Proofs.

Section N.
  Variable files : list file.
  Variable S : list nat.
  Hypothesis S_is_L : forall i, In i S <-> InL files i.

  (* exactly the required libraries: listed iff it is a shared library that is part of the link *)
  Theorem C37_needed_iff_loaded_dynamic : forall i, In i (needed files S) <-> exists f, nth_error files i = Some f /\ dynamic f = true /\ InL files i.
  Proof using S_is_L.
    intros i. unfold needed. rewrite filter_In, in_seq. split.
    - intros [Hr H]. destruct (nth_error files i) as [f|] eqn:Ef; [|discriminate]. apply andb_prop in H. destruct H as [Hd Hm].
      exists f. split; [reflexivity|]. split; [assumption|]. apply S_is_L. apply mem_In. assumption.
    - intros (f & Hf & Hd & HL). split.
      + split; [apply Nat.le_0_l|]. apply nth_error_Some. congruence.
      + rewrite Hf, Hd. apply mem_In. apply S_is_L. assumption.
  Qed.

  (* every library linked without --as-needed is listed *)
  Theorem C37_no_as_needed_always_listed : forall i f, nth_error files i = Some f -> dynamic f = true -> optional f = false -> In i (needed files S).
  Proof using S_is_L. intros i f Hf Hd Ho. apply C37_needed_iff_loaded_dynamic. exists f. repeat split; try assumption. eapply L_root; eassumption. Qed.

  (* an --as-needed library is listed only if some loaded file references, non-weakly, a name whose first definition it is.
     The statement says "is among the file's [requests]"; what that means for the reference and the definition is
     C03.Proofs.requests_inv, which is not applied here. *)
  Theorem C37_as_needed_only_if_referenced : forall i f, nth_error files i = Some f -> optional f = true -> In i (needed files S) ->
    exists j fj, InL files j /\ nth_error files j = Some fj /\ In i (requests files j fj).
  Proof using S_is_L.
    intros i f Hf Ho Hn. apply C37_needed_iff_loaded_dynamic in Hn. destruct Hn as (f' & Hf' & _ & HL).
    inversion HL as [i0 f0 Hf0 Ho0|j fj m Hj Hfj Hm].
    - rewrite Hf in Hf0. congruence.
    - exists j, fj. repeat split; assumption.
  Qed.

  (* in command-line order, each at most once *)
  Theorem C37_needed_in_command_line_order : StronglySorted lt (needed files S).
  Proof using.
    unfold needed. generalize (length files) as n. intros n. generalize 0 as k.
    induction n as [|n IH]; intros k; cbn [seq filter]; [constructor|].
    destruct (match nth_error files k with Some f => dynamic f && mem k S | None => false end).
    - constructor; [apply IH|]. apply Forall_forall. intros x Hx. apply filter_In in Hx. destruct Hx as [Hx _]. apply in_seq in Hx. exact (proj1 Hx).
    - apply IH.
  Qed.
End N.

Print Assumptions C37_needed_iff_loaded_dynamic.
Print Assumptions C37_no_as_needed_always_listed.
Print Assumptions C37_as_needed_only_if_referenced.
Print Assumptions C37_needed_in_command_line_order.
