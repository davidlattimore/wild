From Coq Require Import NArith List Bool Arith Lia.
From WV Require Import Base.ListX C15.Model.
Import ListNotations.
Open Scope N_scope.

Lemma beq_eq a : forall b, beq a b = true <-> a = b.
Proof.
  induction a as [|x a IH]; intros [|y b]; cbn; split; intros H; try reflexivity; try discriminate.
  - apply andb_prop in H. destruct H as [H1 H2]. apply N.eqb_eq in H1. apply IH in H2. congruence.
  - injection H as -> ->. rewrite N.eqb_refl. apply IH. reflexivity.
Qed.

Lemma find_rule_lower sel rs : forall i name file j k, find_rule sel rs i name file = Matched j k -> (i <= j)%nat.
Proof.
  induction rs as [|r t IH]; intros i name file j k H; cbn [find_rule] in H; [discriminate|].
  destruct (sel r && rule_matches r name file); [injection H as <- _; lia|]. apply IH in H. lia.
Qed.

Lemma find_rule_split (s1 s2 : rule -> bool) rs : forall i name file,
  (forall r, In r rs -> rule_matches r name file = true -> s1 r = negb (s2 r)) ->
  (forall r, In r rs -> rule_matches r name file = spec_matches r name file) ->
  first_of (find_rule s1 rs i name file) (find_rule s2 rs i name file) = first_match rs i name file.
Proof.
  induction rs as [|r t IH]; intros i name file Hs Hag; cbn [find_rule first_match]; [reflexivity|].
  rewrite <- (Hag r (or_introl eq_refl)). destruct (rule_matches r name file) eqn:Em.
  - rewrite (Hs r (or_introl eq_refl) Em). destruct (s2 r); cbn [andb negb].
    + destruct (find_rule s1 t (S i) name file) as [j l|] eqn:E; cbn [first_of]; [|reflexivity].
      apply find_rule_lower in E. destruct (Nat.ltb_spec j i); [lia|reflexivity].
    + destruct (find_rule s2 t (S i) name file) as [j l|] eqn:E; cbn [first_of]; [|reflexivity].
      apply find_rule_lower in E. destruct (Nat.ltb_spec i j); [reflexivity|lia].
  - rewrite !andb_false_r. apply IH; intros r' Hin; [apply Hs|apply Hag]; right; assumption.
Qed.

Theorem lookup_is_first_match rs name file :
  (forall r, In r rs -> keyed r = true -> rule_matches r name file = true -> key_eqb (key4 (key_text r)) (key4 name) = true) ->
  (forall r, In r rs -> rule_matches r name file = spec_matches r name file) ->
  lookup rs name file = first_match rs 0 name file.
Proof.
  intros Hkey Hag. apply find_rule_split; [|assumption].
  intros r Hin Hm. destruct (keyed r) eqn:Ek; [|reflexivity]. apply (Hkey r Hin Ek Hm).
Qed.

Definition ordinary (esc : bool) (c : N) : bool := negb ((c =? STAR) || (c =? QM) || (c =? LB) || ((c =? BS) && esc)).

Lemma fnm_ordinary esc f c p n : ordinary esc c = true ->
  fnm esc (S f) (c :: p) n = match n with x :: n' => (x =? c) && fnm esc f p n' | [] => false end.
Proof.
  unfold ordinary. cbn [fnm]. destruct (c =? STAR), (c =? QM), (c =? LB), ((c =? BS) && esc); try discriminate.
  reflexivity.
Qed.

Lemma fnm_prefix esc k : forall f p n, (k <= f)%nat ->
  forallb (ordinary esc) (firstn k p) = true -> fnm esc f p n = true -> firstn k n = firstn k p.
Proof.
  induction k as [|k IH]; intros f p n Hf Ho H; [reflexivity|].
  destruct f as [|f]; [lia|]. destruct p as [|c p]; [destruct n; [reflexivity|discriminate]|].
  cbn [firstn forallb] in Ho. apply andb_prop in Ho. destruct Ho as [Hc Ho].
  rewrite fnm_ordinary in H by assumption. destruct n as [|x n]; [discriminate|].
  apply andb_prop in H. destruct H as [E H]. apply N.eqb_eq in E. subst x.
  cbn [firstn]. f_equal. apply (IH f); [lia|assumption|assumption].
Qed.

Lemma fnm_plain esc p : forall n, forallb (ordinary esc) p = true -> fnm esc (S (length p)) p n = beq n p.
Proof.
  induction p as [|c p IH]; intros n H.
  - destruct n; reflexivity.
  - cbn [forallb] in H. apply andb_prop in H. destruct H as [Hc Hp].
    rewrite fnm_ordinary by assumption. destruct n as [|x n]; [reflexivity|].
    rewrite IH by assumption. reflexivity.
Qed.

Definition no_bs (p : list N) : Prop := forall c, In c p -> c <> BS.

Lemma no_bs_cons c p : no_bs (c :: p) -> (c =? BS) = false /\ no_bs p.
Proof.
  intros H. split; [apply N.eqb_neq, H; left; reflexivity|]. intros x Hx. apply H. right. assumption.
Qed.

Lemma class_items_suffix f : forall p first acc g rest,
  class_items f p first acc = Some (g, rest) -> exists pre, p = pre ++ rest.
Proof.
  induction f as [|f IH]; intros p first acc g rest H; [discriminate|]. cbn [class_items] in H.
  destruct p as [|c p']; [discriminate|].
  destruct ((c =? RB) && negb first).
  - injection H as _ <-. exists [c]. reflexivity.
  - destruct p' as [|d [|e p'']].
    + apply IH in H. destruct H as [pre ->]. exists (c :: pre). reflexivity.
    + apply IH in H. destruct H as [pre Hp]. exists (c :: pre). cbn. f_equal. assumption.
    + destruct ((d =? DASH) && negb (e =? RB)).
      * apply IH in H. destruct H as [pre ->]. exists (c :: d :: e :: pre). reflexivity.
      * apply IH in H. destruct H as [pre Hp]. exists (c :: pre). cbn. f_equal. assumption.
Qed.

Lemma parse_class_suffix p cls rest : parse_class p = Some (cls, rest) -> exists pre, p = pre ++ rest.
Proof.
  unfold parse_class. destruct p as [|c p']; [discriminate|].
  destruct ((c =? BANG) || (c =? CARET)).
  - destruct (class_items (S (length p')) p' true (fun _ => false)) as [[g r]|] eqn:E; [|discriminate].
    intros H. injection H as _ <-. apply class_items_suffix in E. destruct E as [pre ->]. exists (c :: pre). reflexivity.
  - intros H. apply class_items_suffix in H. assumption.
Qed.

Lemma fnm_esc_irrelevant f : forall p n, no_bs p -> fnm true f p n = fnm false f p n.
Proof.
  induction f as [|f IH]; intros p n H; [reflexivity|]. cbn [fnm].
  destruct p as [|c p']; [reflexivity|]. apply no_bs_cons in H. destruct H as [Hc Hp'].
  destruct (c =? STAR); [apply existsb_ext_in; intros x _; apply IH; assumption|].
  destruct (c =? QM); [destruct n; [reflexivity|apply IH; assumption]|].
  destruct (c =? LB).
  - destruct (parse_class p') as [[cls rest]|] eqn:E.
    + destruct n as [|x n']; [reflexivity|]. f_equal. apply IH.
      apply parse_class_suffix in E. destruct E as [pre ->].
      intros y Hy. apply Hp', in_or_app. right. assumption.
    + destruct n as [|x n']; [reflexivity|]. f_equal. apply IH. assumption.
  - rewrite Hc. cbn [andb]. destruct n as [|x n']; [reflexivity|]. f_equal. apply IH. assumption.
Qed.

Lemma glob_is_fnmatch p n : no_bs p -> globmatch p n = fnmatch p n.
Proof. intros H. unfold globmatch, fnmatch. symmetry. apply fnm_esc_irrelevant. assumption. Qed.

Definition s (l : list N) := l.

Definition lit4 (p : list N) : Prop :=
  exists c1 c2 c3 c4 rest, p = c1 :: c2 :: c3 :: c4 :: rest /\
    ordinary true c1 = true /\ ordinary true c2 = true /\ ordinary true c3 = true /\ ordinary true c4 = true.
Definition good (r : rule) : Prop :=
  no_bs (pat r) /\ rewrite_neg (pat r) = pat r /\
  match fpat r with None => True | Some fp => no_bs fp /\ rewrite_neg fp = fp end.

(* the model's three metacharacter tests: [ordinary true] is the complement of [meta], and [special] is [meta] or ']' *)
Lemma ordinary_meta c : meta c = false -> ordinary true c = true.
Proof. unfold ordinary, meta. rewrite andb_true_r. intros ->. reflexivity. Qed.

Lemma meta_special c : special c = false -> meta c = false.
Proof. unfold special, meta. destruct (c =? STAR), (c =? QM), (c =? BS), (c =? LB); trivial. Qed.

Lemma ordinary_weaken c : ordinary true c = true -> ordinary false c = true.
Proof. unfold ordinary. rewrite andb_false_r. destruct (c =? STAR), (c =? QM), (c =? LB); trivial. Qed.

Lemma existsb_false_forallb {A} (P Q : A -> bool) l :
  (forall x, P x = false -> Q x = true) -> existsb P l = false -> forallb Q l = true.
Proof.
  intros HPQ. induction l as [|a l IH]; cbn; [reflexivity|]. intros H.
  apply orb_false_iff in H. destruct H as [Ha Hl]. rewrite (HPQ a Ha), IH by assumption. reflexivity.
Qed.

Lemma special_free_ordinary p : existsb special p = false -> forallb (ordinary true) p = true.
Proof. apply existsb_false_forallb. intros c Hc. apply ordinary_meta, meta_special, Hc. Qed.

Lemma analyze_loop_no_bs p : forall t, no_bs p ->
  (analyze_loop p t false = t /\ existsb special p = false) \/
  analyze_loop p t false = Star \/ analyze_loop p t false = NonStar.
Proof.
  induction p as [|c p IH]; intros t H; cbn [analyze_loop existsb]; [auto|].
  apply no_bs_cons in H. destruct H as [Hc Hp]. unfold special at 1. rewrite Hc.
  destruct (c =? STAR); [auto|].
  destruct ((c =? LB) || (c =? RB) || (c =? QM)) eqn:E.
  - (* a bracket or ?: the type is NonStar from here on, unless a star follows *)
    destruct (IH NonStar Hp) as [[-> _]|[->| ->]]; auto.
  - (* none of the special bytes: the type stays *)
    apply orb_false_elim in E as [E ->]. apply orb_false_elim in E as [-> ->]. apply IH, Hp.
Qed.

Lemma analyze_no_bs p : no_bs p ->
  (analyze p = Exact /\ existsb special p = false) \/ analyze p = Star \/ analyze p = NonStar.
Proof.
  intros H. unfold analyze. destruct (existsb special p) eqn:E; [|auto].
  destruct (analyze_loop_no_bs p Exact H) as [[_ E']|[?|?]]; [congruence|auto|auto].
Qed.

Lemma good_key_text r : good r -> key_text r = pat r.
Proof.
  intros (Hb & _). unfold key_text. destruct (analyze_no_bs _ Hb) as [[-> _]|[->| ->]]; reflexivity.
Qed.

Lemma good_name_matches r name : good r -> name_matches r name = fnmatch (pat r) name.
Proof.
  intros (Hb & Hr & _). unfold name_matches.
  destruct (analyze_no_bs _ Hb) as [[-> Hs]|[->| ->]].
  - unfold fnmatch. rewrite fnm_plain; [reflexivity|]. apply special_free_ordinary, Hs.
  - rewrite Hr. apply glob_is_fnmatch, Hb.
  - rewrite Hr. apply glob_is_fnmatch, Hb.
Qed.

Lemma good_rule_matches r name file : good r -> rule_matches r name file = spec_matches r name file.
Proof.
  intros G. unfold rule_matches, spec_matches. rewrite (good_name_matches r name G).
  destruct G as (_ & _ & Hf). destruct (fpat r) as [fp|]; [|reflexivity].
  destruct Hf as [Hb Hr]. rewrite Hr, glob_is_fnmatch by assumption. reflexivity.
Qed.

(* a keyed rule begins with four ordinary bytes, so a name it matches has the same four-byte key *)
Lemma good_keyed r name file : good r -> keyed r = true -> rule_matches r name file = true ->
  key_eqb (key4 (key_text r)) (key4 name) = true.
Proof.
  intros G Hk H. rewrite (good_rule_matches r name file G) in H. unfold spec_matches in H.
  apply andb_prop in H. destruct H as [H _]. unfold keyed in Hk. rewrite (good_key_text r G) in *.
  unfold key4 in *. destruct (Nat.ltb_spec (length (pat r)) 4) as [|Hlen]; [discriminate|].
  assert (Ho : forallb (ordinary true) (firstn 4 (pat r)) = true).
  { destruct G as (Hb & _). destruct (analyze_no_bs _ Hb) as [[_ Hs]|Ea].
    - (* Exact: no special byte anywhere *)
      rewrite <- (firstn_skipn 4 (pat r)), existsb_app in Hs. apply orb_false_iff in Hs.
      apply special_free_ordinary, Hs.
    - (* Star, NonStar: [keyed] asks that none of the four is a metacharacter *)
      apply (existsb_false_forallb meta); [exact ordinary_meta|].
      destruct Ea as [Ea|Ea]; rewrite Ea in Hk; apply negb_true_iff, Hk. }
  apply (fnm_prefix true 4) in H; [|lia|assumption].
  destruct (Nat.ltb_spec (length name) 4).
  - apply (f_equal (@length N)) in H. rewrite !firstn_length in H. lia.
  - apply beq_eq. symmetry. assumption.
Qed.
