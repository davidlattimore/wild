From Coq Require Import NArith List.
Import ListNotations.
From WV Require Import C15.Model C15.Proofs.
Open Scope N_scope.

(* For every list of rules whose patterns are "good" (no backslash, no "[^"; file patterns likewise escape-free), every section
   name of any length and every file name: the rule table (hash-keyed rules plus the list of rules that cannot be keyed)
   returns exactly the first rule, in script order, whose section and file patterns POSIX-fnmatch; KEEP flag included.
   Patterns with fewer than four fixed leading bytes and names shorter than four bytes are covered since the repair in /repo. *)
Theorem C15_lookup_is_first_match_except_known : forall rs name file,
  (forall r, In r rs -> good r) ->
  lookup rs name file = first_match rs 0 name file.
Proof.
  intros rs name file G. apply lookup_is_first_match.
  - intros r Hin. apply good_keyed, G, Hin.
  - intros r Hin. apply good_rule_matches, G, Hin.
Qed.

(* the general form, with the semantic side conditions explicit *)
Theorem C15_lookup_is_first_match_general : forall rs name file,
  (forall r, In r rs -> keyed r = true -> rule_matches r name file = true -> key_eqb (key4 (key_text r)) (key4 name) = true) ->
  (forall r, In r rs -> rule_matches r name file = spec_matches r name file) ->
  lookup rs name file = first_match rs 0 name file.
Proof. exact lookup_is_first_match. Qed.

(* the formerly failing class, now matched: `*foo`, `.t*`, a three-byte name *)
Theorem C15_short_patterns_now_match :
  lookup [{| pat := [42; 102; 111; 111]; fpat := None; keep := false |}] [46; 120; 102; 111; 111] [] = Matched 0 false /\
  lookup [{| pat := [46; 116; 42]; fpat := None; keep := true |}] [46; 116; 101; 120; 116] [] = Matched 0 true /\
  lookup [{| pat := [46; 97; 98]; fpat := None; keep := false |}] [46; 97; 98] [] = Matched 0 false.
Proof. vm_compute. repeat split. Qed.

(* refutation of the unrestricted statement: the remaining known class *)
Theorem C15_backslash_in_glob_refuted :
  let p := [46; 116; 101; 120; 116; 46; 92; 42; 42] in
  let name := [46; 116; 101; 120; 116; 46; 42; 120] in
  fnmatch p name = true /\ globmatch p name = false.
Proof. vm_compute. split; reflexivity. Qed.

Print Assumptions C15_lookup_is_first_match_except_known.
Print Assumptions C15_lookup_is_first_match_general.
Print Assumptions C15_short_patterns_now_match.
Print Assumptions C15_backslash_in_glob_refuted.
