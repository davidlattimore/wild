From Coq Require Import ZArith List Bool Lia.
From WV Require Import C12.Types C12.Model C14.Model C14.Isa C14.Check.
Import ListNotations.
Open Scope Z_scope.

(* enumerate a hypothesis `In x [c1; ...; cn]`: one goal per ci, with ci put for x *)
Ltac enum H := cbn [In] in H; repeat (destruct H as [<-|H]); try contradiction.

Lemma sext32_mod x : - 2 ^ 31 <= x < 2 ^ 31 -> sext32 (x mod 2 ^ 32) = x.
Proof. intros H. unfold sext32. destruct (Z.ltb_spec (x mod 2 ^ 32) (2 ^ 31)); Z.div_mod_to_equations; lia. Qed.
Lemma sext32_mod32 x : sext32 x mod 2 ^ 32 = x mod 2 ^ 32.
Proof. unfold sext32. destruct (x <? 2 ^ 31); [reflexivity|]. exact (Z_mod_plus_full x (-1) (2 ^ 32)). Qed.

Lemma wrap_small v : 0 <= v < 2 ^ 64 -> wrap v = v.
Proof. intros. unfold wrap, M64. apply Z.mod_small. lia. Qed.
Lemma wrap_add_l a b : wrap (wrap a + b) = wrap (a + b).
Proof. apply Zplus_mod_idemp_l. Qed.
Lemma wrap_to_i64 u : 0 <= u < 2 ^ 64 -> wrap (to_i64 u) = u.
Proof.
  intros H. unfold to_i64, wrap. destruct (u <? 2 ^ 63).
  - apply Z.mod_small, H.
  - change (u - 2 ^ 64) with (u + -1 * 2 ^ 64). rewrite Z_mod_plus_full. apply Z.mod_small, H.
Qed.
Lemma to_i64_range u : 0 <= u < 2 ^ 64 -> - 2 ^ 63 <= to_i64 u < 2 ^ 63.
Proof. intros. unfold to_i64. destruct (Z.ltb_spec u (2 ^ 63)); lia. Qed.
Lemma trunc64_wrap x : trunc W64 (wrap x) = wrap x.
Proof. unfold trunc, bits, wrap, M64. apply Z.mod_mod. lia. Qed.
Lemma trunc64_small x : 0 <= x < 2 ^ 64 -> trunc W64 x = x.
Proof. exact (wrap_small x). Qed.
Lemma mod64_mod32 x : (x mod 2 ^ 64) mod 2 ^ 32 = x mod 2 ^ 32.
Proof. symmetry. apply Znumtheory.Zmod_div_mod; [reflexivity|reflexivity|exists (2 ^ 32); reflexivity]. Qed.

(* the psABI value that new_value cuts to 64 bits and reads as i64 *)
Definition rel_target (rt G V A P : Z) : Z :=
  if rt =? 2 then V + A - P else if rt =? 22 then G + A - P else V + A.

(* every use of the new value is an address or operand modulo 2^64 *)
Lemma wrap_add_new_value a rt G V A P : wrap (a + new_value rt G V A P) = wrap (a + rel_target rt G V A P).
Proof.
  unfold new_value. fold (rel_target rt G V A P). generalize (rel_target rt G V A P). intros X.
  rewrite !(Z.add_comm a), <- wrap_add_l, wrap_to_i64 by (apply Z.mod_pos_bound; lia). apply wrap_add_l.
Qed.
Lemma new_value_mod32 rt G V A P : new_value rt G V A P mod 2 ^ 32 = rel_target rt G V A P mod 2 ^ 32.
Proof.
  rewrite <- mod64_mod32, <- (mod64_mod32 (rel_target rt G V A P)). f_equal.
  exact (wrap_add_new_value 0 rt G V A P).
Qed.

Lemma write_bytes4 (r : row) x v :
  r_size r = RBytes 4 -> r_max r < 2 ^ 62 ->
  write_bytes r x = Some v -> r_min r <= x < r_max r /\ v = x mod 2 ^ 32.
Proof.
  intros Hs Hb. unfold write_bytes, verify. rewrite Hs.
  destruct (Z.leb_spec (r_min r) x); [|rewrite andb_false_r; discriminate].
  destruct (Z.ltb_spec x (r_max r)).
  2:{ destruct (Z.eqb_spec (r_max r) I64MAX) as [E|E]; [unfold I64MAX in E; lia|]. rewrite andb_false_r. discriminate. }
  destruct (_ && _ && _); [|discriminate]. intros [= <-]. split; [lia|].
  apply mod64_mod32.
Qed.

(* the five relocation types the rewrites leave: PC32, 32, 32S, GOTTPOFF, TPOFF32 *)
Lemma new_field_mod rt G V A P v : In rt [2; 10; 11; 22; 23] -> new_field rt G V A P = Some v ->
  v = new_value rt G V A P mod 2 ^ 32 /\ (rt <> 10 -> - 2 ^ 31 <= new_value rt G V A P < 2 ^ 31).
Proof.
  unfold new_field. generalize (new_value rt G V A P). intros x Hin H.
  (* eapply finds each type's row by conversion; [try reflexivity]: that it is 4 bytes wide and bounded below 2^62 *)
  enum Hin; eapply write_bytes4 in H; try reflexivity.
  all: cbn [r_min r_max] in H; split; [|intros Hne]; lia.
Qed.

Lemma wrap_add_field a {rt G V A P v} : new_field rt G V A P = Some v -> In rt [2; 11; 22; 23] ->
  wrap (a + sext32 v) = wrap (a + rel_target rt G V A P).
Proof.
  intros H Hin. apply new_field_mod in H as [-> Hr]; [|enum Hin; cbn; auto 10].
  rewrite sext32_mod by (apply Hr; enum Hin; discriminate). apply wrap_add_new_value.
Qed.

(* the ModRM bytes with mod = 00 and r/m = 101, RIP-relative, one for each reg (rip_modrm_iff) *)
Definition rip_modrms : list Z := [5; 13; 21; 29; 37; 45; 53; 61].
Definition reg3 (m : Z) : Z := Z.land (Z.shiftr m 3) 7.
Definition fld (f0 f1 f2 f3 : Z) : Z := f0 + 256 * f1 + 65536 * f2 + 16777216 * f3.

Definition in_list (x : Z) (l : list Z) : bool := existsb (Z.eqb x) l.
Lemma in_list_In x l : in_list x l = true -> In x l.
Proof. intros H. apply existsb_exists in H. destruct H as [y [Hy E]]. apply Z.eqb_eq in E. subst. exact Hy. Qed.

Lemma rip_modrm_iff m : In m rip_modrms <-> (0 <= m < 256 /\ Z.land m 199 = 5).
Proof.
  split.
  - intros H. cbn in H. repeat (destruct H as [<-|H]; [split; [lia|reflexivity]|]). destruct H.
  - intros [Hr Hl].
    assert (Hc : forallb (fun x => negb (Z.land x 199 =? 5) || existsb (Z.eqb x) rip_modrms) (map Z.of_nat (seq 0 256)) = true)
      by (vm_compute; reflexivity).
    rewrite forallb_forall in Hc. specialize (Hc m).
    assert (Hi : In m (map Z.of_nat (seq 0 256))).
    { apply in_map_iff. exists (Z.to_nat m). split; [lia|]. apply in_seq. lia. }
    apply Hc in Hi. rewrite Hl in Hi.
    apply existsb_exists in Hi. destruct Hi as [x [Hx He]]. apply Z.eqb_eq in He. subst. exact Hx.
Qed.

(* a single legacy 66 or any REX prefix in front of mov/lea (plain R_X86_64_GOTPCREL) *)
Definition pfx_bytes : list Z := [102; 64; 65; 66; 67; 68; 69; 70; 71; 72; 73; 74; 75; 76; 77; 78; 79].
(* the register a REX (io = 3) or REX2 (io = 4) instruction with W names in ModRM.reg *)
Definition desc_reg (io rex m : Z) : Z := reg3 m + (if io =? 4 then 16 else 0) + (if rex =? 76 then 8 else 0).

(* Decoding goes in two steps, as the decoder does: the prefixes fix a state (pfx, rexi); opcode and ModRM
   are decoded in that state.  Only the first step looks at prefix bytes and in the second the state stays
   symbolic, so no case is a whole instruction; the field stays symbolic throughout. *)
(* the prefix sequences of the psABI forms: none, REX2 with W (R4, R3 or B4, B3), one legacy 66 or one REX byte *)
Definition hdrs : list (list Z) :=
  [] :: [213; 72] :: [213; 76] :: [213; 24] :: [213; 25] :: map (fun p => [p]) pfx_bytes.
Definition hdr_pfx (h : list Z) : pfx :=
  {| p66 := match h with [102] => true | _ => false end; p67 := false; pfs := false |}.
Definition hdr_rex (h : list Z) : rexi :=
  match h with [] | [102] => no_rex | [r] => of_rex r | _ :: r :: _ => of_rex2 r end.

Lemma hdrs_pfx p : In p pfx_bytes -> In [p] hdrs.
Proof. intros H. do 5 right. exact (in_map (fun p => [p]) _ _ H). Qed.

Lemma decode_hdr h op t : In h hdrs -> In op [139; 141; 3; 43; 59; 199; 129] ->
  decode (h ++ op :: t)
  = match decode_op (hdr_pfx h) (hdr_rex h) op t with
    | Some (i, n) => Some (i, Z.of_nat (length h) + n)
    | None => None
    end.
Proof. intros H1 H2. enum H1; enum H2; reflexivity. Qed.

(* reg := reg OP source: op = 8b is mov, 03 2b 3b the ALU group add sub cmp *)
Definition mk_rs (op : Z) (w : width) (r : Z) (s : src) : instr :=
  if op =? 139 then IMov w r s else IAlu (Z.shiftr op 3) w false r r s.
(* the register-immediate twin of opcode op: c7 /0 for mov, 81 /(op >> 3) for the ALU group *)
Definition imm_opc (op : Z) : Z := if op =? 139 then 199 else 129.
Definition imm_ext (op : Z) : Z := if op =? 139 then 192 else 192 + Z.land op 56.

Lemma decode_op_rs p x op m f0 f1 f2 f3 post : p67 p = false -> pfs p = false ->
  In op [139; 3; 43; 59] -> In m rip_modrms ->
  decode_op p x op (m :: f0 :: f1 :: f2 :: f3 :: post)
  = Some (mk_rs op (width_of p x) (reg3 m + rr x) (SMem (MRip (fld f0 f1 f2 f3))), 6).
Proof. destruct p as [a b c]. cbn [p67 pfs]. intros -> -> H2 H3. enum H2; enum H3; reflexivity. Qed.

Lemma decode_op_lea p x m f0 f1 f2 f3 post : p67 p = false -> pfs p = false -> In m rip_modrms ->
  decode_op p x 141 (m :: f0 :: f1 :: f2 :: f3 :: post)
  = Some (ILea (width_of p x) (reg3 m + rr x) (MRip (fld f0 f1 f2 f3)), 6).
Proof. destruct p as [a b c]. cbn [p67 pfs]. intros -> -> H3. enum H3; reflexivity. Qed.

(* rr x = 0 is a hypothesis because `reg - rr x =? 0` in decode_op does not compute on a symbolic rr *)
Lemma decode_op_imm x op m f0 f1 f2 f3 post : rr x = 0 ->
  In op [139; 3; 43; 59] -> In m rip_modrms ->
  decode_op (hdr_pfx []) x (imm_opc op) (modrm_rm m (imm_ext op) :: f0 :: f1 :: f2 :: f3 :: post)
  = Some (mk_rs op (width_of (hdr_pfx []) x) (reg3 m + rb x) (SImm (fld f0 f1 f2 f3)), 6).
Proof. destruct x as [w r xx b]. cbn [rr]. intros -> H2 H3. enum H2; enum H3; reflexivity. Qed.

Lemma in_ops op : In op [139; 3; 43; 59] ->
  In op [139; 141; 3; 43; 59; 199; 129] /\ In (imm_opc op) [139; 141; 3; 43; 59; 199; 129].
Proof. intros H. enum H; cbn; auto 10. Qed.

Lemma dec_rs h op m f0 f1 f2 f3 post : In h hdrs -> In op [139; 3; 43; 59] -> In m rip_modrms ->
  decode (h ++ op :: m :: f0 :: f1 :: f2 :: f3 :: post)
  = Some (mk_rs op (width_of (hdr_pfx h) (hdr_rex h)) (reg3 m + rr (hdr_rex h)) (SMem (MRip (fld f0 f1 f2 f3))),
          Z.of_nat (length h) + 6).
Proof. intros H1 H2 H3. rewrite decode_hdr, decode_op_rs; auto. apply in_ops, H2. Qed.

Lemma dec_lea h m f0 f1 f2 f3 post : In h hdrs -> In m rip_modrms ->
  decode (h ++ 141 :: m :: f0 :: f1 :: f2 :: f3 :: post)
  = Some (ILea (width_of (hdr_pfx h) (hdr_rex h)) (reg3 m + rr (hdr_rex h)) (MRip (fld f0 f1 f2 f3)),
          Z.of_nat (length h) + 6).
Proof. intros H1 H3. rewrite decode_hdr, decode_op_lea; cbn; auto. Qed.

Lemma dec_imm h op m f0 f1 f2 f3 post : In h hdrs -> hdr_pfx h = hdr_pfx [] -> rr (hdr_rex h) = 0 ->
  In op [139; 3; 43; 59] -> In m rip_modrms ->
  decode (h ++ imm_opc op :: modrm_rm m (imm_ext op) :: f0 :: f1 :: f2 :: f3 :: post)
  = Some (mk_rs op (width_of (hdr_pfx []) (hdr_rex h)) (reg3 m + rb (hdr_rex h)) (SImm (fld f0 f1 f2 f3)),
          Z.of_nat (length h) + 6).
Proof. intros H1 Hp Hr H2 H3. rewrite decode_hdr, Hp, decode_op_imm; auto. apply in_ops, H2. Qed.

Definition rex_hdr (io z : Z) : list Z := if io =? 4 then [213; z] else [z].

Lemma rex_hdr_in io rex : In io [3; 4] -> In rex [72; 76] ->
  In (rex_hdr io rex) hdrs /\ In (rex_hdr io (rex_fix io rex)) hdrs.
Proof.
  intros Hio Hrex. enum Hio.
  - split; apply hdrs_pfx, in_list_In; enum Hrex; reflexivity.
  - enum Hrex; unfold hdrs; cbn [In]; auto 10.
Qed.

(* under REX.W / REX2.W the register is desc_reg, whether ModRM.reg names it (extended by R) or, after
   rex_fix has moved R to B, ModRM.rm does *)
Lemma dec_rs_rex io rex op m f0 f1 f2 f3 post :
  In io [3; 4] -> In rex [72; 76] -> In op [139; 3; 43; 59] -> In m rip_modrms ->
  decode (rex_hdr io rex ++ op :: m :: f0 :: f1 :: f2 :: f3 :: post)
  = Some (mk_rs op W64 (desc_reg io rex m) (SMem (MRip (fld f0 f1 f2 f3))), io + 4).
Proof.
  intros Hio Hrex Hop Hm. rewrite dec_rs; [|apply rex_hdr_in; assumption|assumption..].
  unfold desc_reg. rewrite <- Z.add_assoc. enum Hio; enum Hrex; reflexivity.
Qed.

Lemma dec_imm_rex io rex op m f0 f1 f2 f3 post :
  In io [3; 4] -> In rex [72; 76] -> In op [139; 3; 43; 59] -> In m rip_modrms ->
  decode (rex_hdr io (rex_fix io rex) ++ imm_opc op :: modrm_rm m (imm_ext op) :: f0 :: f1 :: f2 :: f3 :: post)
  = Some (mk_rs op W64 (desc_reg io rex m) (SImm (fld f0 f1 f2 f3)), io + 4).
Proof.
  intros Hio Hrex Hop Hm. rewrite dec_imm; [|apply rex_hdr_in; assumption|..|exact Hop|exact Hm].
  - unfold desc_reg. rewrite <- Z.add_assoc. enum Hio; enum Hrex; reflexivity.
  - (* no 66 in front *) enum Hio; enum Hrex; reflexivity.
  - (* rex_fix has cleared R *) enum Hio; enum Hrex; reflexivity.
Qed.

Lemma dec_call_ind f0 f1 f2 f3 post : decode (255 :: 21 :: f0 :: f1 :: f2 :: f3 :: post) = Some (ICallM (MRip (fld f0 f1 f2 f3)), 6).
Proof. reflexivity. Qed.
Lemma dec_jmp_ind f0 f1 f2 f3 post : decode (255 :: 37 :: f0 :: f1 :: f2 :: f3 :: post) = Some (IJmpM (MRip (fld f0 f1 f2 f3)), 6).
Proof. reflexivity. Qed.
Lemma dec_call_rel f0 f1 f2 f3 post : decode (103 :: 232 :: f0 :: f1 :: f2 :: f3 :: post) = Some (ICallR (fld f0 f1 f2 f3), 6).
Proof. reflexivity. Qed.
Lemma dec_jmp_rel f0 f1 f2 f3 post : decode (233 :: f0 :: f1 :: f2 :: f3 :: post) = Some (IJmpR (fld f0 f1 f2 f3), 5).
Proof. reflexivity. Qed.

(* P: the address of the relocated field of the original instruction, its last four bytes; G: the address of the GOT
   slot the field points at, as a displacement from the field's end (G - 4 - P, which has to fit 32 bits signed);
   V: what the slot holds, modulo 2^64. *)
Definition ctx (e : env) (G V P : Z) : Prop :=
  0 <= G < 2 ^ 64 /\ - 2 ^ 31 <= G - 4 - P < 2 ^ 31 /\ mem64 e G = wrap V.

(* orig: the window before the rewrite; w2: after it, the new field written.  n: the bytes of the original instruction in
   front of its field; d: by how much the rewrite moves the field, so that n + d bytes of the new instruction stand in
   front of the new field and both instructions start at P - n.  Run there they have the same effect and, unless that
   is a jump, the same successor. *)
Definition preserved (e : env) (n : nat) (d P : Z) (orig w2 : win) : Prop :=
  exists ef nx nx',
    exec_at e (bytes_from orig n) (P - Z.of_nat n) = Some (ef, nx) /\
    exec_at e (bytes_from w2 (Z.to_nat (Z.of_nat n + d))) (P - Z.of_nat n) = Some (ef, nx') /\
    (nx' = nx \/ exists t, ef = EJmp t).

(* R_X86_64_PC32 with addend -4: the displacement counts from the end of the field *)
Lemma pc32_target {G V P0 v} : new_field 2 G V (-4) P0 = Some v -> wrap (P0 + 4 + sext32 v) = wrap V.
Proof.
  intros H. rewrite (wrap_add_field _ H) by (cbn; auto).
  unfold rel_target. cbn [Z.eqb Pos.eqb]. f_equal. lia.
Qed.

(* sign-extended 32-bit immediates under REX.W: relocation types 11 (32S) and 23 (TPOFF32), addend 0 *)
Lemma value_imm64 e nx {rt G V P0 v} : new_field rt G V 0 P0 = Some v -> In rt [11; 23] ->
  value e nx W64 (SImm v) = Some (trunc W64 (wrap V)).
Proof.
  intros H Hin. unfold value.
  (* the ascription: [0 + sext32 v] computes to [sext32 v] *)
  rewrite (wrap_add_field 0 H : _ -> wrap (sext32 v) = _) by (enum Hin; cbn; auto).
  unfold rel_target. enum Hin; cbn [Z.eqb Pos.eqb]; do 3 f_equal; lia.
Qed.

(* zero-extended 32-bit immediate without REX.W: relocation type 10 (R_X86_64_32); only the low half counts *)
Lemma imm32_value e next {G V P0 v} :
  new_field 10 G V 0 P0 = Some v -> value e next W32 (SImm v) = Some (trunc W32 (wrap V)).
Proof.
  intros H. apply new_field_mod in H as [-> _]; [|cbn; auto]. unfold value, trunc, bits, wrap, M64. f_equal.
  rewrite !mod64_mod32, sext32_mod32, Z.mod_mod, new_value_mod32 by lia.
  unfold rel_target. cbn [Z.eqb Pos.eqb]. f_equal. lia.
Qed.

Lemma fld_bytes v : 0 <= v < 2 ^ 32 -> fld (by0 v) (by1 v) (by2 v) (by3 v) = v.
Proof. intros H. unfold fld, by0, by1, by2, by3. Z.div_mod_to_equations. lia. Qed.

Lemma fld_field {rt G V A P v} : new_field rt G V A P = Some v -> In rt [2; 10; 11; 22; 23] ->
  fld (by0 v) (by1 v) (by2 v) (by3 v) = v.
Proof.
  intros H Hin. apply new_field_mod in H as [-> _]; [|exact Hin]. apply fld_bytes, Z.mod_pos_bound. lia.
Qed.

(* the psABI instruction forms: n = bytes of the instruction in front of the relocated field *)
Definition std_form (rt : Z) (w : win) (n : nat) : bool :=
  let b := before w in
  if (rt =? 42) || (rt =? 22) then Nat.eqb n 3 && in_list (nb b 0) rip_modrms
  else if (rt =? 43) || (rt =? 44) then Nat.eqb n 4 && (nb b 3 =? 213) && in_list (nb b 0) rip_modrms
  else if rt =? 41 then Nat.eqb n 2 && (in_list (nb b 0) rip_modrms || (nb b 1 =? 255))
  else if rt =? 9 then
    in_list (nb b 0) rip_modrms && (Nat.eqb n 2 || (Nat.eqb n 3 && in_list (nb b 2) pfx_bytes))
  else false.

Definition io_of (rt : Z) : Z := if (rt =? 42) || (rt =? 22) then 3 else 4.

Lemma std_form_inv rt w n : std_form rt w n = true ->
  (In rt [42; 43; 22; 44] /\ n = Z.to_nat (io_of rt) /\ In (nb (before w) 0) rip_modrms /\
   (io_of rt = 4 -> exists more', skipn 3 (before w) = 213 :: more')) \/
  (rt = 41 /\ n = 2%nat /\ (In (nb (before w) 0) rip_modrms \/ nb (before w) 1 = 255)) \/
  (rt = 9 /\ In (nb (before w) 0) rip_modrms /\
   (n = 2%nat \/ n = 3%nat /\ exists p more', skipn 2 (before w) = p :: more' /\ In p pfx_bytes)).
Proof.
  unfold std_form, io_of. generalize (before w). intros b H.
  destruct ((rt =? 42) || (rt =? 22)) eqn:E1; [|destruct ((rt =? 43) || (rt =? 44)) eqn:E2].
  - apply andb_prop in H as [Hn Hm]. apply Nat.eqb_eq in Hn. apply in_list_In in Hm.
    left. split; [|split; [exact Hn|split; [exact Hm|discriminate]]].
    apply orb_prop in E1 as [E|E]; apply Z.eqb_eq in E; cbn; auto.
  - (* REX2: the fourth byte in front is d5 *)
    apply andb_prop in H as [H Hm]. apply andb_prop in H as [Hn H213].
    apply Nat.eqb_eq in Hn. apply in_list_In in Hm. apply Z.eqb_eq in H213.
    left. split; [|split; [exact Hn|split; [exact Hm|intros _]]].
    + apply orb_prop in E2 as [E|E]; apply Z.eqb_eq in E; cbn; auto.
    + destruct b as [|? [|? [|? [|x more']]]]; try discriminate. cbn in H213. subst x. exists more'. reflexivity.
  - right. destruct (Z.eqb_spec rt 41) as [->|_]; [|destruct (Z.eqb_spec rt 9) as [->|_]; [|discriminate]].
    + left. apply andb_prop in H as [Hn Hm]. apply Nat.eqb_eq in Hn. apply orb_prop in Hm as [Hm|Hm].
      * apply in_list_In in Hm. auto.
      * apply Z.eqb_eq in Hm. auto.
    + right. apply andb_prop in H as [Hm Hn]. apply in_list_In in Hm. split; [reflexivity|split; [exact Hm|]].
      apply orb_prop in Hn as [Hn|Hn].
      * apply Nat.eqb_eq in Hn. auto.
      * apply andb_prop in Hn as [Hn Hp]. apply Nat.eqb_eq in Hn. right. split; [exact Hn|].
        destruct b as [|? [|? [|p more']]]; try discriminate. exists p, more'. split; [reflexivity|apply in_list_In, Hp].
Qed.

(* the effect of `reg := reg OP source` depends on the source only through its value; this is why a memory
   operand may be replaced by an immediate that evaluates alike *)
Definition rs_eff (e : env) (op : Z) (w : width) (r x : Z) : eff :=
  if op =? 139 then ESet w r x
  else EAlu (Z.shiftr op 3) w false (if Z.shiftr op 3 =? 7 then None else Some r) (trunc w (regs e r)) x.

Lemma eff_rs e nx op w r s x : value e nx w s = Some x -> effect e nx (mk_rs op w r s) = Some (rs_eff e op w r x).
Proof. intros H. unfold mk_rs, rs_eff. destruct (op =? 139); cbn [effect]; rewrite H; reflexivity. Qed.

(* in every psABI form the relocated field is the last thing in the instruction, before and after the rewrite.
   The premises come in pairs, for the original and for the rewritten instruction: it decodes, its length, its
   effect; the last says that the successor is the same unless the effect is a jump *)
Lemma preserved_field_last e n d P orig w2 i1 i2 len1 len2 ef :
  decode (bytes_from orig n) = Some (i1, len1) ->
  decode (bytes_from w2 (Z.to_nat (Z.of_nat n + d))) = Some (i2, len2) ->
  len1 = Z.of_nat n + 4 -> len2 = Z.of_nat n + d + 4 ->
  effect e (P + 4) i1 = Some ef -> effect e (P + d + 4) i2 = Some ef ->
  (d = 0 \/ exists t, ef = EJmp t) ->
  preserved e n d P orig w2.
Proof.
  intros D1 D2 -> -> E1 E2 L. unfold preserved, exec_at. rewrite D1, D2.
  replace (P - Z.of_nat n + (Z.of_nat n + 4)) with (P + 4) by lia.
  replace (P - Z.of_nat n + (Z.of_nat n + d + 4)) with (P + d + 4) by lia.
  rewrite E1, E2. do 3 eexists. split; [reflexivity|]. split; [reflexivity|].
  destruct L as [->|L]; [left; lia|right; exact L].
Qed.

(* h: prefix bytes in instruction order; `before` holds them reversed, behind ModRM and opcode *)
Lemma bytes_from_hdr h x y more t :
  bytes_from {| before := x :: y :: rev h ++ more; after := t |} (length h + 2) = h ++ y :: x :: t.
Proof.
  unfold bytes_from. cbn [before after]. rewrite Nat.add_comm. cbn [Nat.add firstn].
  rewrite <- (rev_length h), firstn_app, Nat.sub_diag, firstn_all. cbn [rev].
  rewrite app_nil_r, rev_involutive, <- !app_assoc. reflexivity.
Qed.

Lemma bytes_from_rex io x y z more t : In io [3; 4] -> (io = 4 -> exists more', more = 213 :: more') ->
  bytes_from {| before := x :: y :: z :: more; after := t |} (Z.to_nat io) = rex_hdr io z ++ y :: x :: t.
Proof. intros Hio H213. enum Hio; [|destruct H213 as [more' ->]; [reflexivity|]]; reflexivity. Qed.

(* One lemma per rewrite; its second window is the one `apply` leaves.  The new field stands at P + d, d being what
   `apply` returns; the place is written so, as the property theorem has it, also where d = 0. *)
Section Got.
Variables (e : env) (G V P f0 f1 f2 f3 : Z) (post : list Z).
Hypothesis HF : fld f0 f1 f2 f3 = (G - 4 - P) mod 2 ^ 32.
Hypothesis HC : ctx e G V P.
Notation fs := (f0 :: f1 :: f2 :: f3 :: post).

Lemma got_load : load e (P + 4) (MRip (fld f0 f1 f2 f3)) = Some (wrap V).
Proof.
  destruct HC as (HG & HGP & Hs). unfold load, addr. rewrite HF, sext32_mod by lia.
  replace (P + 4 + (G - 4 - P)) with G by lia. rewrite wrap_small by lia. cbn [option_map]. rewrite Hs. reflexivity.
Qed.

Lemma got_value w : value e (P + 4) w (SMem (MRip (fld f0 f1 f2 f3))) = Some (trunc w (wrap V)).
Proof. unfold value. rewrite got_load. reflexivity. Qed.

(* RexMov/RexAdd/RexSub/RexCmp io: mov/add/sub/cmp from the slot -> the same with a sign-extended immediate;
   R moves to B in the prefix, reg to r/m in ModRM.  io = 3: REX, io = 4: REX2 (`before` goes on with d5) *)
Lemma imm_preserved io rex op m more rt' v :
  In io [3; 4] -> (io = 4 -> exists more', more = 213 :: more') -> In rex [72; 76] ->
  In op [139; 3; 43; 59] -> In m rip_modrms -> In rt' [11; 23] -> new_field rt' G V 0 (P + 0) = Some v ->
  preserved e (Z.to_nat io) 0 P {| before := m :: op :: rex :: more; after := fs |}
    (put32 {| before := modrm_rm m (imm_ext op) :: imm_opc op :: rex_fix io rex :: more; after := fs |} v).
Proof.
  intros Hio H213 Hrex Hop Hm Hrt HV. eapply preserved_field_last.
  - rewrite bytes_from_rex by assumption. apply dec_rs_rex; assumption.
  - rewrite Z.add_0_r, Nat2Z.id. unfold put32, bytes32. cbn [before after skipn app].
    rewrite bytes_from_rex by assumption. apply dec_imm_rex; assumption.
  - enum Hio; reflexivity.
  - enum Hio; reflexivity.
  - apply eff_rs, got_value.
  - rewrite (fld_field HV) by (enum Hrt; cbn; auto 10).
    apply eff_rs. exact (value_imm64 e _ HV Hrt).
  - left; reflexivity.
Qed.

(* MovIndirectToAbsolute: 32-bit mov from the slot -> mov $imm32, zero-extended (R_X86_64_32) *)
Lemma abs_preserved m more v : In m rip_modrms -> new_field 10 G V 0 (P + 0) = Some v ->
  preserved e 2 0 P {| before := m :: 139 :: more; after := fs |}
    (put32 {| before := modrm_rm m 192 :: 199 :: more; after := fs |} v).
Proof.
  intros Hm HV. eapply preserved_field_last.
  - apply (dec_rs [] 139); cbn; auto.
  - apply (dec_imm [] 139); cbn; auto.
  - reflexivity.
  - reflexivity.
  - apply eff_rs, got_value.
  - rewrite (fld_field HV) by (cbn; auto). apply eff_rs. exact (imm32_value e _ HV).
  - left; reflexivity.
Qed.

(* MovIndirectToLea: mov from the slot -> lea of the slot's content, under any of the prefixes *)
Lemma lea_preserved h m more v : In h hdrs -> In m rip_modrms ->
  new_field 2 G V (-4) (P + 0) = Some v ->
  preserved e (length h + 2) 0 P {| before := m :: 139 :: rev h ++ more; after := fs |}
    (put32 {| before := m :: 141 :: rev h ++ more; after := fs |} v).
Proof.
  intros Hh Hm HV. eapply preserved_field_last.
  - rewrite bytes_from_hdr. apply (dec_rs h 139); cbn; auto.
  - rewrite Z.add_0_r, Nat2Z.id. unfold put32, bytes32. cbn [before after skipn app]. rewrite bytes_from_hdr.
    apply dec_lea; assumption.
  - lia.
  - lia.
  - apply (eff_rs e _ 139), got_value.
  - rewrite (fld_field HV) by (cbn; auto). unfold effect, addr.
    rewrite (pc32_target HV). reflexivity.
  - left; reflexivity.
Qed.

Lemma lea_rex_preserved io rex m more v :
  In io [3; 4] -> (io = 4 -> exists more', more = 213 :: more') -> In rex [72; 76] -> In m rip_modrms ->
  new_field 2 G V (-4) (P + 0) = Some v ->
  preserved e (Z.to_nat io) 0 P {| before := m :: 139 :: rex :: more; after := fs |}
    (put32 {| before := m :: 141 :: rex :: more; after := fs |} v).
Proof.
  intros Hio H213 Hrex Hm HV. assert (Hh := proj1 (rex_hdr_in io rex Hio Hrex)). enum Hio.
  - apply (lea_preserved [rex]); assumption.
  - destruct H213 as [more' ->]; [reflexivity|]. apply (lea_preserved [213; rex]); assumption.
Qed.

(* CallRel: call *slot -> addr32 call rel32 *)
Lemma call_preserved more v : new_field 2 G V (-4) (P + 0) = Some v ->
  preserved e 2 0 P {| before := 21 :: 255 :: more; after := fs |}
    (put32 {| before := 232 :: 103 :: more; after := fs |} v).
Proof.
  intros HV. eapply preserved_field_last.
  - apply dec_call_ind.
  - apply dec_call_rel.
  - reflexivity.
  - reflexivity.
  - unfold effect. rewrite got_load. reflexivity.
  - rewrite (fld_field HV) by (cbn; auto). unfold effect.
    rewrite (pc32_target HV), Z.add_0_r. reflexivity.
  - left; reflexivity.
Qed.

(* JmpRel: jmp *slot -> jmp rel32; nop.  One byte shorter, the nop is never reached *)
Lemma jmp_preserved more v : new_field 2 G V (-4) (P + -1) = Some v ->
  preserved e 2 (-1) P {| before := 37 :: 255 :: more; after := fs |}
    (put32 {| before := 233 :: more; after := 0 :: 0 :: 0 :: 0 :: 144 :: post |} v).
Proof.
  intros HV. eapply preserved_field_last.
  - apply dec_jmp_ind.
  - apply dec_jmp_rel.
  - reflexivity.
  - reflexivity.
  - unfold effect. rewrite got_load. reflexivity.
  - rewrite (fld_field HV) by (cbn; auto). unfold effect.
    rewrite (pc32_target HV). reflexivity.
  - right. eexists. reflexivity.
Qed.
End Got.

Definition rex_kind (op io : Z) : kind :=
  if op =? 139 then RexMov io else if op =? 3 then RexAdd io else if op =? 43 then RexSub io else RexCmp io.

Lemma apply_rex io op m o rex more a A : In io [3; 4] -> In op [139; 3; 43; 59] ->
  apply (rex_kind op io) {| before := m :: o :: rex :: more; after := a |} A
  = Some ({| before := modrm_rm m (imm_ext op) :: imm_opc op :: rex_fix io rex :: more; after := a |}, 0, 0).
Proof. intros H0 H1. enum H0; enum H1; reflexivity. Qed.

Lemma rexw_in rex : (rex =? 72) || (rex =? 76) = true -> In rex [72; 76].
Proof. intros H. apply orb_prop in H as [E|E]; apply Z.eqb_eq in E; cbn; auto. Qed.

(* REX_GOTPCRELX, CODE_4_GOTPCRELX (42, 43) and GOTTPOFF, CODE_4_GOTTPOFF (22, 44).  The two types of a pair go
   the same way (`all:`): the second only asks for d5 where there is a fourth byte in front *)
Lemma choice_rex rt w fl ok k rt' mand (io := io_of rt) : In rt [42; 43; 22; 44] ->
  new_relaxation rt w fl ok true = RSome k rt' mand ->
  exists m op rex more, before w = m :: op :: rex :: more /\ In rex [72; 76] /\
    ((k = rex_kind op io /\ In op [139; 3; 43; 59] /\ In rt' [11; 23]) \/
     (k = MovIndirectToLea /\ op = 139 /\ rt' = 2)).
Proof.
  intros Hrt HN. subst io.
  assert (Hpair : In rt [42; 43] \/ In rt [22; 44]) by (enum Hrt; cbn; auto).
  clear Hrt. destruct Hpair as [Hrt|Hrt].
  - enum Hrt; unfold new_relaxation in HN; cbn [Z.eqb Pos.eqb orb andb io_of] in HN |- *.
    all: destruct (f_ifunc fl); [discriminate|]; cbn [negb] in HN.
    (* with fewer than three bytes in front the branch is not entered *)
    all: destruct w as [[|m [|op [|rex more]]] a]; cbn [before has length Nat.leb nb nth andb orb] in HN;
      try discriminate.
    all: exists m, op, rex, more; (split; [reflexivity|]); rewrite ?orb_true_r in HN.
    (* REX.W, with or without R *)
    all: destruct ((rex =? 72) || (rex =? 76)) eqn:Hrex; cbn [negb] in HN; [|discriminate].
    all: split; [apply rexw_in, Hrex|].
    all: destruct (f_absolute fl && _ || _) in HN;
      [ (* an absolute value or address: mov, sub, cmp -> the immediate twin *)
        destruct (Z.eqb_spec op 139) as [->|_];
          [|destruct (Z.eqb_spec op 43) as [->|_]; [|destruct (Z.eqb_spec op 59) as [->|_]; [|discriminate]]];
        injection HN as <- <- <-; cbn; auto 10
      | (* neither, but a symbol that cannot be interposed: mov -> lea *)
        destruct (negb (negb (f_nonint fl))); [|discriminate]; destruct (Z.eqb_spec op 139) as [->|_]; [|discriminate];
        injection HN as <- <- <-; auto ].
  - enum Hrt; unfold new_relaxation in HN; cbn [Z.eqb Pos.eqb orb andb io_of] in HN |- *.
    all: destruct (f_ifunc fl); [discriminate|]; cbn [negb] in HN.
    (* an executable and a symbol that cannot be interposed *)
    all: destruct (ok_is_executable ok), (f_nonint fl); try discriminate; cbn [andb negb] in HN.
    all: destruct w as [[|m [|op [|rex more]]] a]; cbn [before has length Nat.leb nb nth andb orb] in HN;
      try discriminate.
    all: exists m, op, rex, more; (split; [reflexivity|]); rewrite ?orb_true_r in HN.
    all: destruct ((rex =? 72) || (rex =? 76)) eqn:Hrex; cbn [andb] in HN; [|discriminate].
    all: split; [apply rexw_in, Hrex|].
    (* mov, add -> the immediate twin *)
    all: destruct (Z.eqb_spec op 139) as [->|_]; [|destruct (Z.eqb_spec op 3) as [->|_]; [|discriminate]];
      injection HN as <- <- <-; cbn; auto 10.
Qed.

(* GOTPCRELX (41) on an instruction without REX *)
Lemma choice_gotpcrelx w fl ok k rt' mand :
  new_relaxation 41 w fl ok true = RSome k rt' mand ->
  exists m op more, before w = m :: op :: more /\
    ((op = 139 /\ ((k = MovIndirectToAbsolute /\ rt' = 10) \/ (k = MovIndirectToLea /\ rt' = 2))) \/
     (op = 255 /\ rt' = 2 /\ ((m = 21 /\ k = CallRel) \/ (m = 37 /\ k = JmpRel)))).
Proof.
  unfold new_relaxation. cbn [Z.eqb Pos.eqb orb andb].
  destruct (f_ifunc fl); [discriminate|]. destruct w as [[|m [|op more]] a]; try discriminate.
  intros HN. exists m, op, more. split; [reflexivity|]. revert HN.
  unfold before_is. cbn [before has length Nat.leb nb nth negb firstn eq_list].
  destruct (Z.eqb_spec op 139) as [->|_]; cbn [andb].
  - destruct (_ || _); [intros [= <- <- <-]; auto 10|].
    destruct (negb (negb (f_nonint fl))); [intros [= <- <- <-]; auto 10|discriminate].
  - destruct (negb (negb (f_nonint fl))); [|discriminate].
    destruct (Z.eqb_spec op 255) as [->|_]; [|rewrite !andb_false_r; discriminate].
    destruct (Z.eqb_spec m 21) as [->|_]; [intros [= <- <- <-]; auto 10|].
    destruct (Z.eqb_spec m 37) as [->|_]; [intros [= <- <- <-]; auto 10|discriminate].
Qed.

(* GOTPCREL (9) *)
Lemma choice_gotpcrel w fl ok k rt' mand :
  new_relaxation 9 w fl ok true = RSome k rt' mand ->
  k = MovIndirectToLea /\ rt' = 2 /\ exists m more, before w = m :: 139 :: more.
Proof.
  unfold new_relaxation. cbn [Z.eqb Pos.eqb orb andb].
  destruct (f_ifunc fl); [discriminate|].
  destruct w as [[|m [|op more]] a]; destruct (negb (negb (f_nonint fl))); try discriminate.
  cbn [before has length Nat.leb nb nth andb].
  destruct (Z.eqb_spec op 139) as [->|_]; [intros [= <- <- <-]; eauto|discriminate].
Qed.

Definition tls_result (e : env) (k : nat) (l : list Z) (ip : Z) (dst expect len : Z) : Prop :=
  exists e', run k e l ip = Some (e', ip + len) /\ regs e' dst = expect /\ forall r, r <> dst -> regs e' r = regs e r.

Lemma overwrite_spec src : forall dst r, overwrite dst src = Some r -> r = src ++ skipn (length src) dst.
Proof.
  induction src as [|s src IH]; intros dst r H; cbn in H.
  - injection H as <-. reflexivity.
  - destruct dst as [|x dst]; [discriminate|]. destruct (overwrite dst src) as [r'|] eqn:E; [|discriminate].
    injection H as <-. cbn. f_equal. apply IH, E.
Qed.

Lemma splice_spec w k l w' : splice w k l = Some w' ->
  before w' = rev (firstn k l) ++ skipn k (before w) /\ after w' = skipn k l ++ skipn (length l - k) (after w).
Proof.
  unfold splice. destruct (overwrite (before w) _) as [b|] eqn:Eb; [|discriminate].
  destruct (overwrite (after w) _) as [a|] eqn:Ea; [|discriminate].
  destruct (Nat.leb_spec k (length l)) as [Hk|]; [|discriminate]. intros [= <-].
  apply overwrite_spec in Eb, Ea. rewrite rev_length, firstn_length_le in Eb by exact Hk.
  rewrite skipn_length in Ea. auto.
Qed.

Lemma fwd_spec n : forall w w', fwd n w = Some w' ->
  before w' = rev (firstn n (after w)) ++ before w /\ after w' = skipn n (after w).
Proof.
  induction n as [|n IH]; intros w w' H; cbn in H.
  - injection H as <-. auto.
  - destruct (after w) as [|x a] eqn:Ea; [discriminate|]. apply IH in H. cbn [after] in H.
    destruct H as [-> ->]. cbn [firstn rev]. rewrite <- app_assoc. auto.
Qed.

(* splice then fwd, in the shape `apply` has for the six __tls_get_addr sequences; up to conversion, n = 0 is
   the shape of the kinds that only splice *)
Lemma splice_fwd_spec w k l n (d A' : Z) r :
  match splice w k l with
  | Some w' => option_map (fun w'' => (w'', d, A')) (fwd n w')
  | None => None
  end = Some r ->
  let rest := skipn k l ++ skipn (length l - k) (after w) in
  r = ({| before := rev (firstn n rest) ++ rev (firstn k l) ++ skipn k (before w); after := skipn n rest |}, d, A').
Proof.
  destruct (splice w k l) as [w'|] eqn:Hs; [|discriminate]. destruct (fwd n w') as [[b a]|] eqn:Hf; [|discriminate].
  intros [= <-]. apply splice_spec in Hs as [Hb Ha]. apply fwd_spec in Hf as [Hb' Ha']. cbn [before after] in Hb', Ha'.
  subst b a. rewrite Hb, Ha. reflexivity.
Qed.

Lemma set_reg_same e d v : regs (set_reg e d v) d = v.
Proof. unfold set_reg. cbn [regs]. rewrite Z.eqb_refl. reflexivity. Qed.
Lemma set_reg_other e d v r : r <> d -> regs (set_reg e d v) r = regs e r.
Proof. intros H. unfold set_reg. cbn [regs]. destruct (Z.eqb_spec r d); [contradiction|reflexivity]. Qed.

Lemma tls_set k e l ip i n dst x expect len :
  decode l = Some (i, n) -> effect e (ip + n) i = Some (ESet W64 dst x) ->
  tls_result (set_reg e dst x) k (skipn (Z.to_nat n) l) (ip + n) dst expect (len - n) ->
  tls_result e (S k) l ip dst expect len.
Proof.
  intros D E (e' & R & X & O). exists e'. cbn [run]. rewrite D, E, R.
  split; [do 2 f_equal; lia|]. split; [exact X|].
  intros r Hr. rewrite (O r Hr). apply set_reg_other, Hr.
Qed.
Lemma tls_add k e l ip i n nf dst a b expect len :
  decode l = Some (i, n) -> effect e (ip + n) i = Some (EAlu 0 W64 nf (Some dst) a b) ->
  tls_result (set_reg e dst (wrap (a + b))) k (skipn (Z.to_nat n) l) (ip + n) dst expect (len - n) ->
  tls_result e (S k) l ip dst expect len.
Proof.
  intros D E (e' & R & X & O). exists e'. cbn [run]. rewrite D, E, R.
  split; [do 2 f_equal; lia|]. split; [exact X|].
  intros r Hr. rewrite (O r Hr). apply set_reg_other, Hr.
Qed.
Lemma tls_nop k e l ip n dst expect len :
  decode l = Some (INop, n) ->
  tls_result e k (skipn (Z.to_nat n) l) (ip + n) dst expect (len - n) ->
  tls_result e (S k) l ip dst expect len.
Proof.
  intros D (e' & R & X & O). exists e'. cbn [run]. rewrite D. cbn [effect]. rewrite R.
  split; [do 2 f_equal; lia|]. auto.
Qed.
Lemma tls_done e l ip dst x : regs e dst = x -> tls_result e 0 l ip dst x 0.
Proof. intros H. exists e. rewrite Z.add_0_r. auto. Qed.

Lemma dec_mov_fs0 j t : In j [0; 3; 4]%nat ->
  decode (repeat 102 j ++ 100 :: 72 :: 139 :: 4 :: 37 :: 0 :: 0 :: 0 :: 0 :: t)
  = Some (IMov W64 0 (SMem (MFs 0)), Z.of_nat j + 9).
Proof. intros H. enum H; reflexivity. Qed.
Lemma dec_lea_rax f0 f1 f2 f3 t : decode (72 :: 141 :: 128 :: f0 :: f1 :: f2 :: f3 :: t) = Some (ILea W64 0 (MBase 0 (fld f0 f1 f2 f3)), 7).
Proof. reflexivity. Qed.
Lemma dec_add_rip f0 f1 f2 f3 t : decode (72 :: 3 :: 5 :: f0 :: f1 :: f2 :: f3 :: t) = Some (IAlu 0 W64 false 0 0 (SMem (MRip (fld f0 f1 f2 f3))), 7).
Proof. reflexivity. Qed.
Lemma dec_nopw6 t : decode (102 :: 15 :: 31 :: 68 :: 0 :: 0 :: t) = Some (INop, 6).
Proof. reflexivity. Qed.
Lemma dec_nopw13 t : decode (102 :: 102 :: 102 :: 102 :: 46 :: 15 :: 31 :: 132 :: 0 :: 0 :: 0 :: 0 :: 0 :: t) = Some (INop, 13).
Proof. reflexivity. Qed.
Lemma dec_xchg_ax t : decode (102 :: 144 :: t) = Some (INop, 2).
Proof. reflexivity. Qed.

Lemma eff_mov_fs0 e nx TP : fsmem e 0 = TP -> 0 <= TP < 2 ^ 64 ->
  effect e nx (IMov W64 0 (SMem (MFs 0))) = Some (ESet W64 0 TP).
Proof. intros <- H. cbn. rewrite trunc64_small by exact H. reflexivity. Qed.

Lemma lea_rax_tp e nx {TP G V P0 v} : regs e 0 = TP -> new_field 23 G V 0 P0 = Some v ->
  effect e nx (ILea W64 0 (MBase 0 v)) = Some (ESet W64 0 (wrap (TP + V))).
Proof.
  intros HR H. unfold effect, addr. cbn [option_map].
  rewrite trunc64_wrap, (wrap_add_field _ H) by (cbn; auto).
  unfold rel_target. cbn [Z.eqb Pos.eqb]. do 3 f_equal. lia.
Qed.

(* TLSDESC: lea foo@tlsdesc(%rip),%reg ; call *foo@tlscall(%reg)  ->  mov $tpoff,%reg  /  mov foo@gottpoff(%rip),%reg.
   TlsDescLe writes the bytes RexMov leaves; TlsDescIe writes prefix and ModRM back and turns lea into mov *)
Lemma apply_desc_le io w A m op rex more :
  before w = m :: op :: rex :: more -> In io [3; 4] -> In rex [72; 76] ->
  apply (TlsDescLe io) w A
  = option_map (fun w' => (w', 0, 0)) (splice w 3 [rex_fix io rex; 199; modrm_rm m 192; 0; 0; 0; 0]).
Proof.
  intros HB Hio Hrex. unfold apply. rewrite HB, Z.lor_comm. cbn [has length Nat.leb nb nth].
  enum Hio; enum Hrex; reflexivity.
Qed.
Lemma apply_desc_ie w A m op rex more :
  before w = m :: op :: rex :: more -> In rex [72; 76] -> In m rip_modrms ->
  apply TlsDescIe w A = option_map (fun w' => (w', 0, A)) (splice w 3 [rex; 139; m; 0; 0; 0; 0]).
Proof.
  intros HB Hrex Hm. unfold apply. rewrite HB. cbn [has length Nat.leb nb nth].
  enum Hrex; enum Hm; reflexivity.
Qed.

Lemma load_gottpoff e nx {G V P0 v} :
  new_field 22 G V (-4) P0 = Some v -> nx = P0 + 4 -> 0 <= G < 2 ^ 64 -> mem64 e G = wrap V ->
  load e nx (MRip v) = Some (wrap V).
Proof.
  intros H -> HG HS. unfold load, addr. cbn [option_map].
  rewrite (wrap_add_field _ H) by (cbn; auto). unfold rel_target. cbn [Z.eqb Pos.eqb].
  replace (P0 + 4 + (G + -4 - P0)) with G by lia. rewrite (wrap_small G HG), HS. reflexivity.
Qed.
