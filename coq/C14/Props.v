(* C14 — x86-64 GOT and TLS relaxations preserve instruction semantics: the property theorems.
   Model: C14/Model.v (RelaxationKind::apply, ElfX86_64::new_relaxation), C14/Isa.v (decoder + effects),
   C14/Check.v (relocation applied after the rewrite: value, range check and field from the regenerated C12 table). *)
From Coq Require Import ZArith List Bool Lia.
From WV Require Import C14.Model C14.Isa C14.Check C14.Proofs.
Import ListNotations.
Open Scope Z_scope.

(* GOT family (R_X86_64_GOTPCREL, GOTPCRELX, REX_GOTPCRELX, CODE_4_GOTPCRELX) and IE->LE (GOTTPOFF, CODE_4_GOTTPOFF):
   whenever new_relaxation picks a rewrite for an instruction of the psABI form, and the relocation applied after
   the rewrite passes its range check, the rewritten instruction has the same effect (destination, value, ALU
   operands, control target, return address) and the same successor as the original executed with the GOT slot
   holding V — for every V, every place P, every slot address G, every register, REX and REX2 forms alike. *)
Theorem C14_got_relax_preserves_semantics :
  forall rt w fl ok k rt' mand e G V P n f0 f1 f2 f3 post w1 d A' v,
    new_relaxation rt w fl ok true = RSome k rt' mand ->
    std_form rt w n = true ->
    after w = f0 :: f1 :: f2 :: f3 :: post -> fld f0 f1 f2 f3 = (G - 4 - P) mod 2 ^ 32 ->
    ctx e G V P ->
    apply k w (-4) = Some (w1, d, A') ->
    new_field rt' G V A' (P + d) = Some v ->
    preserved e n d P w (put32 w1 v).
Proof.
  intros rt w fl ok k rt' mand e G V P n f0 f1 f2 f3 post w1 d A' v HN HS HA HF HC HP HV.
  destruct w as [b a]. cbn [after] in HA. subst a.
  destruct (std_form_inv _ _ _ HS) as [(Hrt & -> & Hm & H213)|[(-> & -> & Hm)|(-> & Hm & Hn)]].
  - (* REX (io = 3) and REX2 (io = 4) forms of GOTPCRELX and GOTTPOFF *)
    destruct (choice_rex _ _ _ _ _ _ _ Hrt HN) as (m & op & rex & more & HB & Hrex & Hk).
    cbn [before] in *. subst b. cbn [nb nth skipn] in Hm, H213.
    assert (Hio : In (io_of rt) [3; 4]) by (enum Hrt; cbn; auto).
    destruct Hk as [(-> & Hop & Hrt')|(-> & -> & ->)].
    + rewrite apply_rex in HP by assumption. injection HP as <- <- <-. eapply imm_preserved; eassumption.
    + injection HP as <- <- <-. eapply lea_rex_preserved; eassumption.
  - (* GOTPCRELX on an instruction without REX *)
    destruct (choice_gotpcrelx _ _ _ _ _ _ HN) as (m & op & more & HB & Hk).
    cbn [before] in *. subst b. cbn [nb nth] in Hm.
    destruct Hk as [(-> & Hk)|(-> & -> & Hk)].
    + assert (Hm' : In m rip_modrms) by (destruct Hm as [Hm|Hm]; [exact Hm|discriminate]).
      destruct Hk as [(-> & ->)|(-> & ->)]; injection HP as <- <- <-.
      * eapply abs_preserved; eassumption.
      * eapply lea_preserved with (h := []); try eassumption. left; reflexivity.
    + destruct Hk as [(-> & ->)|(-> & ->)]; injection HP as <- <- <-.
      * eapply call_preserved; eassumption.
      * eapply jmp_preserved; eassumption.
  - (* GOTPCREL: mov -> lea, without prefix or under any single one *)
    destruct (choice_gotpcrel _ _ _ _ _ _ HN) as (-> & -> & m & more & HB).
    cbn [before] in *. subst b. cbn [nb nth skipn] in Hm, Hn.
    injection HP as <- <- <-.
    destruct Hn as [->|(-> & p & more' & -> & Hp)].
    + eapply lea_preserved with (h := []); try eassumption. left; reflexivity.
    + eapply lea_preserved with (h := [p]); try eassumption. apply hdrs_pfx, Hp.
Qed.
Print Assumptions C14_got_relax_preserves_semantics.

(* why the REX.W absolute forms need the SIGNED relocation: with R_X86_64_32 the value 2^31 passes the range
   check and the sign-extending immediate then loads 0xffffffff80000000 (the defect repaired in /repo) *)
Theorem C14_unsigned_reloc_would_be_wrong :
  exists V v, new_field 10 4210688 V 0 4198400 = Some v /\
              value (test_env 4210688 V) 4198404 W64 (SImm v) <> Some (wrap V).
Proof. exists (2 ^ 31), (2 ^ 31). split; [vm_compute; reflexivity|vm_compute; discriminate]. Qed.
Print Assumptions C14_unsigned_reloc_would_be_wrong.

(* TLS family: what new_relaxation picks ... *)
Theorem C14_tlsgd_choice : forall w fl ok k rt' mand,
  new_relaxation 19 w fl ok true = RSome k rt' mand ->
  (k = TlsGdLe /\ rt' = 23 /\ identify w = GdRegular) \/
  (k = TlsGdLeLarge /\ rt' = 23 /\ identify w = GdLarge) \/
  (k = TlsGdIe /\ rt' = 22 /\ identify w = GdRegular).
Proof.
  intros w fl ok k rt' mand.
  unfold new_relaxation. cbn [Z.eqb Pos.eqb orb andb].
  destruct (f_ifunc fl); [discriminate|].
  destruct (ok_is_executable ok); [|rewrite !andb_false_r; discriminate].
  destruct (f_nonint fl); cbn [negb andb].
  - (* the symbol cannot be interposed: local exec, either form *)
    destruct (identify w); intros [= <- <- <-].
    + left. auto.
    + right; left. auto.
  - (* it can: initial exec, the regular form only *)
    destruct (identify w); intros [= <- <- <-]. right; right. auto.
Qed.
Print Assumptions C14_tlsgd_choice.
Theorem C14_tlsld_choice : forall w fl ok k rt' mand,
  new_relaxation 20 w fl ok true = RSome k rt' mand ->
  rt' = 0 /\ before_is w [61; 141; 72] = true /\
  ((k = TlsLdLe /\ after_is w 4 [232] = true) \/ (k = TlsLdLe64 /\ after_is w 4 [72; 184] = true) \/
   (k = TlsLdLeNoPlt /\ after_is w 4 [255; 21] = true)).
Proof.
  intros w fl ok k rt' mand.
  unfold new_relaxation. cbn [Z.eqb Pos.eqb orb andb].
  destruct (f_ifunc fl); [discriminate|]. cbn [negb].
  destruct (ok_is_executable ok); [|discriminate].
  destruct (has (before w) 3); [|discriminate].
  destruct (before_is w [61; 141; 72]); [|discriminate].
  destruct (after_is w 4 [232] && has _ 2) eqn:E1.
  - apply andb_prop in E1 as [E1 _]. intros [= <- <- <-]. auto.
  - destruct (after_is w 4 [72; 184]) eqn:E2; [intros [= <- <- <-]; auto 10|].
    destruct (after_is w 4 [255; 21]) eqn:E3; [intros [= <- <- <-]; auto 10|discriminate].
Qed.
Print Assumptions C14_tlsld_choice.
Theorem C14_tlsdesc_choice : forall rt w fl ok k rt' mand,
  In rt [34; 45] ->
  new_relaxation rt w fl ok true = RSome k rt' mand ->
  has (before w) 3 = true /\ nb (before w) 1 = 141 /\ In (nb (before w) 2) [72; 76] /\
  ((k = TlsDescLe (if rt =? 34 then 3 else 4) /\ rt' = 23) \/ (k = TlsDescIe /\ rt' = 22 /\ rt = 34)).
Proof.
  intros rt w fl ok k rt' mand Hrt. enum Hrt; unfold new_relaxation; cbn [Z.eqb Pos.eqb orb andb].
  all: destruct (f_ifunc fl); [discriminate|].
  all: destruct (ok_is_executable ok); [|rewrite ?andb_false_r; discriminate].
  (* fewer than three bytes in front: a panic or nothing *)
  all: destruct (before w) as [|m [|op [|rex more]]]; cbn [has length Nat.leb nb nth andb orb negb];
    rewrite ?orb_true_r, ?andb_false_r; try discriminate.
  (* either rewrite wants lea under REX.W *)
  all: destruct ((op =? 141) && ((rex =? 72) || (rex =? 76))) eqn:E; [|destruct (f_nonint fl); discriminate].
  all: intros HN; apply andb_prop in E as [Eop Erex]; apply Z.eqb_eq in Eop; apply rexw_in in Erex.
  all: split; [reflexivity|split; [exact Eop|split; [exact Erex|]]].
  (* a symbol that cannot be interposed: local exec; one that can: initial exec *)
  - destruct (f_nonint fl); injection HN as <- <- <-; [left|right]; auto.
  - (* 45: there is no initial-exec form under REX2 *) destruct (f_nonint fl); [|discriminate]. injection HN as <- <- <-. left; auto.
Qed.
Print Assumptions C14_tlsdesc_choice.
Theorem C14_tlsdesc_call_choice : forall w fl ok k rt' mand,
  new_relaxation 35 w fl ok true = RSome k rt' mand -> k = SkipTlsDescCall /\ rt' = 0.
Proof.
  intros w fl ok k rt' mand.
  unfold new_relaxation. cbn [Z.eqb Pos.eqb orb andb].
  destruct (f_ifunc fl); [discriminate|].
  destruct (ok_is_executable ok); [|discriminate].
  intros H; injection H as <- <- <-; auto.
Qed.
Print Assumptions C14_tlsdesc_call_choice.

(* ... and what the rewritten sequences compute (TP = the word at %fs:0; V = the TP offset of the symbol, so the
   psABI result of the original __tls_get_addr / TLSDESC sequence is TP + V resp. V) *)
(* How a statement reads: [tls_result e k l ip dst x len] (Proofs.v) runs k instructions of the bytes l from address ip;
   afterwards register dst (0 is %rax) holds x, no other register has changed, and execution stands at ip + len.  The
   rewritten sequence starts 4 or 3 bytes in front of the original field at P and the new field stands at P + d,
   whence [P - 4] and [Z.to_nat (4 + d)]. *)
Theorem C14_tls_gd_to_le : forall w A w1 d A' e G V P v TP,
  apply TlsGdLe w A = Some (w1, d, A') -> new_field 23 G V A' (P + d) = Some v ->
  fsmem e 0 = TP -> 0 <= TP < 2 ^ 64 ->
  tls_result e 2 (bytes_from (put32 w1 v) (Z.to_nat (4 + d))) (P - 4) 0 (wrap (TP + V)) 16.
Proof.
  intros w A w1 d A' e G V P v TP HP HV HT HTr.
  (* Here and below: [apply K w A] is, by conversion, the [match] of splice_fwd_spec, which gives w1, d and A'; the
     bytes of the new sequence are never written out: they show, again by conversion, when a dec_ lemma is applied
     to [bytes_from (put32 w1 v) _]. *)
  apply splice_fwd_spec in HP as [= -> -> ->].
  (* mov %fs:0,%rax ; lea tpoff(%rax),%rax *)
  eapply tls_set; [apply (dec_mov_fs0 0); left; reflexivity | exact (eff_mov_fs0 e _ TP HT HTr) |].
  eapply tls_set; [apply dec_lea_rax | | apply tls_done, set_reg_same].
  rewrite (fld_field HV) by (cbn; auto 10).
  exact (lea_rax_tp _ _ (set_reg_same _ _ _) HV).
Qed.
Print Assumptions C14_tls_gd_to_le.
Theorem C14_tls_gd_to_le_large : forall w A w1 d A' e G V P v TP,
  apply TlsGdLeLarge w A = Some (w1, d, A') -> new_field 23 G V A' (P + d) = Some v ->
  fsmem e 0 = TP -> 0 <= TP < 2 ^ 64 ->
  tls_result e 3 (bytes_from (put32 w1 v) (Z.to_nat (3 + d))) (P - 3) 0 (wrap (TP + V)) 22.
Proof.
  intros w A w1 d A' e G V P v TP HP HV HT HTr.
  apply splice_fwd_spec in HP as [= -> -> ->].
  (* mov %fs:0,%rax ; lea tpoff(%rax),%rax ; nopw 0(%rax,%rax) *)
  eapply tls_set; [apply (dec_mov_fs0 0); left; reflexivity | exact (eff_mov_fs0 e _ TP HT HTr) |].
  eapply tls_set; [apply dec_lea_rax | |].
  - rewrite (fld_field HV) by (cbn; auto 10).
    exact (lea_rax_tp _ _ (set_reg_same _ _ _) HV).
  - eapply tls_nop; [apply dec_nopw6 | apply tls_done, set_reg_same].
Qed.
Print Assumptions C14_tls_gd_to_le_large.
Theorem C14_tls_gd_to_ie : forall w w1 d A' e G V P v TP,
  apply TlsGdIe w (-4) = Some (w1, d, A') -> new_field 22 G V A' (P + d) = Some v ->
  fsmem e 0 = TP -> 0 <= TP < 2 ^ 64 -> 0 <= G < 2 ^ 64 -> mem64 e G = wrap V ->
  tls_result e 2 (bytes_from (put32 w1 v) (Z.to_nat (4 + d))) (P - 4) 0 (wrap (TP + wrap V)) 16.
Proof.
  intros w w1 d A' e G V P v TP HP HV HT HTr HG HS.
  apply splice_fwd_spec in HP as [= -> -> ->].
  (* mov %fs:0,%rax ; add foo@gottpoff(%rip),%rax *)
  eapply tls_set; [apply (dec_mov_fs0 0); left; reflexivity | exact (eff_mov_fs0 e _ TP HT HTr) |].
  eapply tls_add; [apply dec_add_rip | |].
  - rewrite (fld_field HV) by (cbn; auto 10). unfold effect, value.
    rewrite (load_gottpoff _ _ HV); [reflexivity | lia | exact HG | exact HS].
  - apply tls_done. rewrite !set_reg_same, trunc64_wrap, (trunc64_small TP) by exact HTr. reflexivity.
Qed.
Print Assumptions C14_tls_gd_to_ie.
Theorem C14_tls_ld_to_le : forall w A w1 d A' e P TP,
  apply TlsLdLe w A = Some (w1, d, A') -> fsmem e 0 = TP -> 0 <= TP < 2 ^ 64 ->
  tls_result e 1 (bytes_from w1 (Z.to_nat (3 + d))) (P - 3) 0 TP 12.
Proof.
  intros w A w1 d A' e P TP HP HT HTr.
  apply splice_fwd_spec in HP as [= -> -> ->].
  (* data16 data16 data16 mov %fs:0,%rax *)
  eapply tls_set; [apply (dec_mov_fs0 3); cbn; auto | exact (eff_mov_fs0 e _ TP HT HTr) | apply tls_done, set_reg_same].
Qed.
Print Assumptions C14_tls_ld_to_le.
Theorem C14_tls_ld_to_le_noplt : forall w A w1 d A' e P TP,
  apply TlsLdLeNoPlt w A = Some (w1, d, A') -> fsmem e 0 = TP -> 0 <= TP < 2 ^ 64 ->
  tls_result e 1 (bytes_from w1 (Z.to_nat (3 + d))) (P - 3) 0 TP 13.
Proof.
  intros w A w1 d A' e P TP HP HT HTr.
  apply splice_fwd_spec in HP as [= -> -> ->].
  (* four data16, mov %fs:0,%rax *)
  eapply tls_set; [apply (dec_mov_fs0 4); cbn; auto | exact (eff_mov_fs0 e _ TP HT HTr) | apply tls_done, set_reg_same].
Qed.
Print Assumptions C14_tls_ld_to_le_noplt.
Theorem C14_tls_ld_to_le_64 : forall w A w1 d A' e P TP,
  apply TlsLdLe64 w A = Some (w1, d, A') -> fsmem e 0 = TP -> 0 <= TP < 2 ^ 64 ->
  tls_result e 2 (bytes_from w1 (Z.to_nat (3 + d))) (P - 3) 0 TP 22.
Proof.
  intros w A w1 d A' e P TP HP HT HTr.
  apply splice_fwd_spec in HP as [= -> -> ->].
  (* a 13-byte nop ; mov %fs:0,%rax *)
  eapply tls_nop; [apply dec_nopw13 |].
  eapply tls_set; [apply (dec_mov_fs0 0); left; reflexivity | exact (eff_mov_fs0 e _ TP HT HTr) | apply tls_done, set_reg_same].
Qed.
Print Assumptions C14_tls_ld_to_le_64.
Theorem C14_tlsdesc_to_le : forall io w A w1 d A' e G V P v m op rex more,
  before w = m :: op :: rex :: more -> In rex [72; 76] -> In m rip_modrms ->
  (io = 3 \/ (io = 4 /\ exists more', more = 213 :: more')) ->
  apply (TlsDescLe io) w A = Some (w1, d, A') -> new_field 23 G V A' (P + d) = Some v ->
  tls_result e 1 (bytes_from (put32 w1 v) (Z.to_nat (io + d))) (P - io) (desc_reg io rex m) (wrap V) (io + 4).
Proof.
  intros io w A w1 d A' e G V P v m op rex more HB Hrex Hm Hio HP HV.
  assert (Hio' : In io [3; 4]) by (destruct Hio as [->|[-> _]]; cbn; auto).
  assert (H213 : io = 4 -> exists more', more = 213 :: more') by (destruct Hio as [->|[_ H]]; [discriminate|auto]).
  rewrite (apply_desc_le io w A m op rex more) in HP by assumption.
  apply (splice_fwd_spec w 3 _ 0) in HP as [= -> -> ->].
  unfold put32, bytes32. rewrite HB. cbn [before after skipn].
  rewrite Z.add_0_r, bytes_from_rex by assumption.
  (* mov $tpoff,%reg *)
  eapply tls_set; [apply (dec_imm_rex io rex 139 m); (assumption || (left; reflexivity)) | |].
  - rewrite (fld_field HV) by (cbn; auto 10).
    apply (eff_rs e _ 139), (value_imm64 e _ HV). cbn; auto.
  - replace (io + 4 - (io + 4)) with 0 by lia. apply tls_done. rewrite set_reg_same. apply trunc64_wrap.
Qed.
Print Assumptions C14_tlsdesc_to_le.
Theorem C14_tlsdesc_to_ie : forall w w1 d A' e G V P v m op rex more,
  before w = m :: op :: rex :: more -> In rex [72; 76] -> In m rip_modrms ->
  apply TlsDescIe w (-4) = Some (w1, d, A') -> new_field 22 G V A' (P + d) = Some v ->
  0 <= G < 2 ^ 64 -> mem64 e G = wrap V ->
  tls_result e 1 (bytes_from (put32 w1 v) (Z.to_nat (3 + d))) (P - 3) (desc_reg 3 rex m) (wrap V) 7.
Proof.
  intros w w1 d A' e G V P v m op rex more HB Hrex Hm HP HV HG HS.
  rewrite (apply_desc_ie w _ m op rex more) in HP by assumption.
  apply (splice_fwd_spec w 3 _ 0) in HP as [= -> -> ->].
  (* mov foo@gottpoff(%rip),%reg *)
  eapply tls_set; [apply (dec_rs_rex 3 rex 139 m); (assumption || (left; reflexivity)) | |].
  - rewrite (fld_field HV) by (cbn; auto 10). apply (eff_rs e _ 139). unfold value.
    rewrite (load_gottpoff _ _ HV); [reflexivity | lia | exact HG | exact HS].
  - apply tls_done. rewrite set_reg_same. apply trunc64_wrap.
Qed.
Print Assumptions C14_tlsdesc_to_ie.
Theorem C14_tlsdesc_call_is_nop : forall w A w1 d A' e P,
  apply SkipTlsDescCall w A = Some (w1, d, A') ->
  run 1 e (bytes_from w1 (Z.to_nat (0 + d))) P = Some (e, P + 2).
Proof.
  intros w A w1 d A' e P HP.
  apply (splice_fwd_spec w 0 _ 0) in HP as [= -> -> ->].
  unfold bytes_from. cbn [before after Z.add Z.to_nat firstn rev app run].
  rewrite dec_xchg_ax. reflexivity.
Qed.
Print Assumptions C14_tlsdesc_call_is_nop.

(* non-vacuity: a concrete relaxable instruction meets every hypothesis of the GOT theorem *)
Example C14_hypotheses_satisfiable :
  let w := {| before := [5; 139; 72; 144]; after := [252; 47; 0; 0; 144] |} in
  new_relaxation 42 w (mk_flags 9) 0 true = RSome (RexMov 3) 11 true /\
  std_form 42 w 3 = true /\
  fld 252 47 0 0 = (4210688 - 4 - 4198400) mod 2 ^ 32 /\
  apply (RexMov 3) w (-4) = Some ({| before := [192; 199; 72; 144]; after := [252; 47; 0; 0; 144] |}, 0, 0) /\
  new_field 11 4210688 (-8) 0 (4198400 + 0) = Some 4294967288.
Proof. vm_compute. repeat split; reflexivity. Qed.
