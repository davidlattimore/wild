From Coq Require Import ZArith.
From WV Require Import C01.Model.
Open Scope Z_scope.

Definition addend_of (k : kind) (l : link) : Z :=
  match k with Abs64 | PcRel | TpOff | TlsLdDtpOff => A l | _ => 0 end.      (* GOT/PLT classes: A only positions rip *)
