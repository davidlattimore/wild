From Coq Require Import ZArith Lia.
From WV Require Import C01.Model C01.Proofs.
Open Scope Z_scope.

(* For every class of reference, every link-time layout (addresses of the definition, the place, the GOT slot, the PLT
   entry, the TLS segment), every addend, position-dependent and position-independent outputs, every load base, thread
   pointer and TLS block placement the loader may choose: the address the running program computes is where the
   definition really is at run time, plus the addend. *)
Theorem C01_run_time_value_is_the_psabi_value :
  forall k l r,
    consistent l r -> static_tls l r ->
    observed k l r = actual k l r + addend_of k l.
Proof.
  intros k l r (Hb & Hm) Ht. unfold static_tls in Ht.
  unfold observed, actual, addend_of, field, slot, word_rel, loader.
  (* a position-dependent output is loaded at 0 as module 1; then every class is linear arithmetic *)
  destruct k; (destruct (pic l); [|specialize (Hb eq_refl); specialize (Hm eq_refl); rewrite ?Hm in Ht |- *]);
    cbn [fst snd]; lia.
Qed.
Print Assumptions C01_run_time_value_is_the_psabi_value.

(* the relative relocation on the GOT slot is what makes the GOT classes right in a position-independent output:
   without it the slot keeps the link-time address *)
Theorem C01_refuted_without_the_relative_relocation :
  let l := {| S := 0x4000; A := -4; P := 0x1000; G := 0x3000; L := 0x1800; tls_start := 0; tls_end := 0; pic := true |} in
  let r := {| base := 0x550000; tp := 0; modid := 1; block := fun _ => 0 |} in
  observed GotLoad l r = 0x554000 /\
  fst (fst (slot GotLoad l)) + (P l + base r + field GotLoad l - (G l + base r + A l)) = 0x4000.
Proof. vm_compute. split; reflexivity. Qed.
Print Assumptions C01_refuted_without_the_relative_relocation.

Example C01_example_tls :
  let l := {| S := 0x5010; A := 0; P := 0x1000; G := 0x3000; L := 0; tls_start := 0x5000; tls_end := 0x5040; pic := false |} in
  let r := {| base := 0; tp := 0x7f0000001040; modid := 1; block := fun m => 0x7f0000001000 |} in
  static_tls l r /\ observed TpOff l r = 0x7f0000001010 /\ observed GotTpOff l r = 0x7f0000001010 /\ observed TlsGd l r = 0x7f0000001010.
Proof. vm_compute. repeat split. Qed.
