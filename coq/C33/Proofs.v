From Coq Require Import NArith List Bool.
From WV Require Import Base.ListX C33.Model.
Import ListNotations.
Open Scope N_scope.

Lemma name_eqb_eq a b : name_eqb a b = true <-> a = b.
Proof.
  revert b. induction a as [x|a IH|a IH]; intros [y|b|b]; cbn [name_eqb]; try (split; discriminate).
  - rewrite N.eqb_eq. split; congruence.
  - rewrite IH. split; congruence.
  - rewrite IH. split; congruence.
Qed.
Lemma name_eqb_neq a b : a <> b -> name_eqb a b = false.
Proof. intros H. destruct (name_eqb a b) eqn:E; [apply name_eqb_eq in E; contradiction|reflexivity]. Qed.

Lemma wrapped_in ws s : wrapped ws s = true <-> In s ws.
Proof. exact (existsb_eqb_In name_eqb name_eqb_eq s ws). Qed.
Lemma wrapped_app ws s x : wrapped (ws ++ [x]) s = wrapped ws s || name_eqb s x.
Proof. unfold wrapped. rewrite existsb_app. cbn [existsb]. rewrite orb_false_r. reflexivity. Qed.

(* closed form of wild's table after the rewrite *)
Definition cf (t : table) (ws : list name) (n : name) : option N :=
  match n with
  | Base _ => if wrapped ws n then match t (Wrap n) with Some w => Some w | None => t n end else t n
  | Real s => if wrapped ws s then match t s with Some o => Some o | None => t n end else t n
  | Wrap _ => t n
  end.

(* a step for a base name writes two keys at most, each with a value that depends on the first table only *)
Lemma wild_step_base t acc b n : wild_step t acc (Base b) n =
  match n with
  | Base c => if c =? b then match t (Wrap (Base b)) with Some w => Some w | None => acc n end else acc n
  | Wrap _ => acc n
  | Real y => if name_eqb y (Base b) then match t (Base b) with Some o => Some o | None => acc n end else acc n
  end.
Proof.
  unfold wild_step, upd. destruct n as [c|y|y].
  - destruct (t (Wrap (Base b))), (t (Base b)); cbn [name_eqb]; destruct (c =? b); reflexivity.
  - destruct (t (Wrap (Base b))), (t (Base b)); reflexivity.
  - destruct (t (Wrap (Base b))), (t (Base b)); cbn [name_eqb]; destruct (name_eqb y (Base b)); reflexivity.
Qed.

Theorem wild_table_closed_form t ws :
  Forall (fun s => is_base s = true) ws -> forall n, wild_table t ws n = cf t ws n.
Proof.
  induction ws as [|s ws' IH] using rev_ind; intros Hb n; [destruct n; reflexivity|].
  apply Forall_app in Hb. destruct Hb as [Hb Hs]. inversion Hs as [|? ? Hsb _]; subst.
  destruct s as [b|x|x]; try discriminate.
  unfold wild_table. rewrite fold_left_app. cbn [fold_left]. rewrite wild_step_base. fold (wild_table t ws').
  rewrite (IH Hb). destruct n as [c|y|y]; cbn [cf]; rewrite ?wrapped_app; cbn [name_eqb].
  - destruct (N.eqb_spec c b) as [->|_]; rewrite ?orb_false_r; [|reflexivity].
    destruct (t (Wrap (Base b))), (wrapped ws' (Base b)); reflexivity.
  - reflexivity.
  - destruct (name_eqb y (Base b)) eqn:E; rewrite ?orb_false_r; [|reflexivity].
    apply name_eqb_eq in E. subst y. destruct (t (Base b)), (wrapped ws' (Base b)); reflexivity.
Qed.
