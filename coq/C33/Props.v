(* C33 — --wrap redirects references exactly as GNU ld does: the property theorems.
   Model: C33/Model.v (wild: apply_wrapped_symbol_overrides as a fold over the --wrap list; GNU ld: one-step
   renaming of undefined references; `bind` = references from the defining object stay inside it). *)
From Coq Require Import NArith List.
From WV Require Import C33.Model C33.Proofs.
Import ListNotations.
Open Scope N_scope.

(* For every name table (any set of objects, archive members and shared libraries), every list of wrapped base
   names (in any order, repetitions allowed) each of which has a __wrap_ definition (and no stray definition of __real_S when S itself is
   undefined), every referenced name binds under wild exactly as under GNU ld — in particular S -> __wrap_S and
   __real_S -> the original S, everything else unchanged. *)
Theorem C33_wrap_binds_as_gnu_ld :
  forall t ws,
    Forall (fun s => is_base s = true) ws ->
    (forall s, In s ws -> t (Wrap s) <> None /\ (t s = None -> t (Real s) = None)) ->
    forall n, wild_resolve t ws n = gnu_resolve t ws n.
Proof.
  intros t ws Hb Hw n. unfold wild_resolve. rewrite (wild_table_closed_form t ws Hb).
  assert (Hnb : forall m, is_base m = false -> wrapped ws m = false).
  { intros m Hm. destruct (wrapped ws m) eqn:E; [|reflexivity]. apply wrapped_in in E.
    rewrite Forall_forall in Hb. rewrite (Hb m E) in Hm. discriminate. }
  unfold gnu_resolve. destruct n as [c|y|y]; cbn [cf].
  - destruct (wrapped ws (Base c)) eqn:E; [|reflexivity].
    apply wrapped_in in E. destruct (Hw _ E) as [H1 _]. destruct (t (Wrap (Base c))); [reflexivity|contradiction].
  - rewrite (Hnb (Wrap y) eq_refl). reflexivity.
  - rewrite (Hnb (Real y) eq_refl). destruct (wrapped ws y) eqn:E; [|reflexivity].
    apply wrapped_in in E. destruct (Hw _ E) as [_ H2]. destruct (t y) as [o|]; [reflexivity|]. apply H2. reflexivity.
Qed.
Print Assumptions C33_wrap_binds_as_gnu_ld.

(* ... hence also for references made from inside the defining object (unaffected in both) *)
Theorem C33_defining_object_unaffected :
  forall resolve own n d, own n = Some d -> bind resolve own n = Some d.
Proof. intros resolve own n d H. unfold bind. rewrite H. reflexivity. Qed.
Print Assumptions C33_defining_object_unaffected.

(* the closed form of wild's rewrite (no hypothesis on which wrappers exist) *)
Theorem C33_wild_table_closed_form :
  forall t ws, Forall (fun s => is_base s = true) ws -> forall n, wild_table t ws n = cf t ws n.
Proof. exact wild_table_closed_form. Qed.
Print Assumptions C33_wild_table_closed_form.

(* outside the hypotheses the statement is false of the model (and of wild: known_findings.json) *)
Theorem C33_refuted_wrapper_missing :     (* --wrap=S, S defined (id 1), no __wrap_S *)
  let t := of_list [(Base 1, 1)] in
  wild_resolve t [Base 1] (Base 1) = Some 1 /\ gnu_resolve t [Base 1] (Base 1) = None.
Proof. vm_compute. split; reflexivity. Qed.
Print Assumptions C33_refuted_wrapper_missing.

Theorem C33_refuted_wrap_given_twice :    (* the pinned tree, --wrap=S --wrap=S: __real_S ended up at the wrapper (repaired) *)
  let t := of_list [(Base 1, 1); (Wrap (Base 1), 2)] in
  wild_resolve_pinned t [Base 1; Base 1] (Real (Base 1)) = Some 2 /\ gnu_resolve t [Base 1; Base 1] (Real (Base 1)) = Some 1 /\
  wild_resolve t [Base 1; Base 1] (Real (Base 1)) = Some 1.
Proof. vm_compute. repeat split; reflexivity. Qed.
Print Assumptions C33_refuted_wrap_given_twice.

Theorem C33_refuted_real_defined_original_missing :
  let t := of_list [(Wrap (Base 1), 2); (Real (Base 1), 3)] in
  wild_resolve t [Base 1] (Real (Base 1)) = Some 3 /\ gnu_resolve t [Base 1] (Real (Base 1)) = None.
Proof. vm_compute. split; reflexivity. Qed.
Print Assumptions C33_refuted_real_defined_original_missing.

Example C33_hypotheses_satisfiable :
  let t := of_list [(Base 1, 1); (Wrap (Base 1), 2); (Base 2, 3)] in
  (t (Wrap (Base 1)) <> None) /\
  wild_resolve t [Base 1] (Base 1) = Some 2 /\ wild_resolve t [Base 1] (Real (Base 1)) = Some 1 /\ wild_resolve t [Base 1] (Base 2) = Some 3.
Proof. vm_compute. repeat split; discriminate || reflexivity. Qed.
