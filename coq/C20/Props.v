(* C20 — inputs changed during a link make the link fail. *)
From Coq Require Import ZArith List.
From WV Require Import C20.Model C20.Proofs.
Import ListNotations.
Open Scope Z_scope.

(* For every history before the open, every modification kind that leaves a trace in the file's metadata — rewrite,
   append, touch, replacement by a fresh file, replacement by a file carrying the old file's modification time and size —
   arriving at ANY instant after wild opened the input, and whatever else happens to the path before and after
   (further modifications, reads, the passage of time): verify_inputs_unchanged reports the change. *)
Theorem C20_change_after_open_fails_the_link :
  forall before mid1 c mid2,
    visible c = true -> no_open mid1 -> no_open mid2 ->
    verdict (run (before ++ [WOpen] ++ mid1 ++ [Env c] ++ mid2 ++ [WVerify])) = Some false.
Proof.
  intros before mid1 c mid2 Hc H1 H2. rewrite run_app, !fold_left_app.
  apply lag_verify with (r := cur (run before)).
  apply (fold_inv _ _ (lag_step 1 _)); [exact H2|]. apply lag_change; [exact Hc|].
  apply (fold_inv _ _ (lag_step 0 _)); [exact H1|]. apply lag_open, bounded_run.
Qed.
Print Assumptions C20_change_after_open_fails_the_link.

(* ... and an input nobody touches between the open and the end of the link is never reported *)
Theorem C20_untouched_input_is_accepted :
  forall before mid, quiet mid -> verdict (run (before ++ [WOpen] ++ mid ++ [WVerify])) = Some true.
Proof.
  intros before mid H. rewrite run_app, !fold_left_app.
  apply recorded_verify, quiet_keeps_recorded; [exact H|reflexivity].
Qed.
Print Assumptions C20_untouched_input_is_accepted.

(* The order inside FileData::open matters: were the identity read after the mmap, a rewrite landing between
   the open and the mmap would be read (the mapping shows the new bytes) and yet accepted. *)
Theorem C20_refuted_if_identity_is_recorded_after_the_mmap :
  let t := [WOpen; Env Rewrite; WMap; WRead; WVerify] in
  verdict (run_late t) = Some true /\ verdict (run t) = Some false.
Proof. vm_compute. split; reflexivity. Qed.
Print Assumptions C20_refuted_if_identity_is_recorded_after_the_mmap.

(* The pinned tree compared modification times only and could not see a replacement that carries the old time over
   (repaired in /repo: size, device and inode are compared as well). *)
Theorem C20_refuted_mtime_only_for_a_replacement_that_keeps_the_mtime :
  let t := [WOpen; WMap; Env ReplaceKeepingMtime; WRead; WVerify] in
  verdict (run_mtime_only t) = Some true /\ version (run_mtime_only t) <> version (run_mtime_only [WOpen]) /\
  verdict (run t) = Some false.
Proof. vm_compute. repeat split. discriminate. Qed.
Print Assumptions C20_refuted_mtime_only_for_a_replacement_that_keeps_the_mtime.

(* What no comparison of metadata can see: bytes overwritten in place, same length, with the old modification time put
   back afterwards.  Outside the property's modification kinds (rewrite, append, replace by rename, touch). *)
Theorem C20_refuted_for_a_rewrite_that_restores_the_mtime :
  let t := [WOpen; WMap; Env RewriteRestoringMtime; WRead; WVerify] in
  verdict (run t) = Some true /\ version (run t) <> version (run [WOpen]).
Proof. vm_compute. split; [reflexivity|discriminate]. Qed.
Print Assumptions C20_refuted_for_a_rewrite_that_restores_the_mtime.

Example C20_example :
  verdict (run ([Tick; Env Rewrite] ++ [WOpen] ++ [WMap; WRead; Tick] ++ [Env ReplaceKeepingMtime] ++ [WRead; Env Touch] ++ [WVerify])) = Some false.
Proof. vm_compute. reflexivity. Qed.
