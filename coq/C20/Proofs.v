From Coq Require Import ZArith List Lia.
From WV Require Import C20.Model.
Open Scope Z_scope.

Lemma run_app a b : run (a ++ b) = fold_left step b (run a).
Proof. unfold run. apply fold_left_app. Qed.

Lemma fold_inv (P : st -> Prop) (Q : event -> Prop) :
  (forall s e, Q e -> P s -> P (step s e)) ->
  forall evs s, Forall Q evs -> P s -> P (fold_left step evs s).
Proof. intros H. induction evs as [|e r IH]; intros s Hq Hs; inversion Hq; cbn [fold_left]; auto. Qed.

(* [lag d r s]: r is the recorded identity; what the path names now carries a time and an inode stamp that the
   clock bounds, each at least r's, and together at least d beyond r's.  d = 0 right after r was recorded; a
   visible change makes it 1, since it stamps the time or the inode with a clock value nothing older can carry. *)
Definition lag (d : Z) (r : ident) (s : st) : Prop :=
  recorded s = Some r /\ i_mtime (cur s) <= clock s /\ i_ino (cur s) <= clock s /\
  i_mtime r <= i_mtime (cur s) /\ i_ino r <= i_ino (cur s) /\
  d <= (i_mtime (cur s) - i_mtime r) + (i_ino (cur s) - i_ino r).

Definition no_open (evs : list event) : Prop := Forall (fun e => e <> WOpen) evs.

Lemma lag_step d r s e : e <> WOpen -> lag d r s -> lag d r (step s e).
Proof. intros He (Hr & H). destruct e as [[]| | | | |]; try contradiction; (split; [exact Hr|cbn; lia]). Qed.
Lemma lag_change r s c : visible c = true -> lag 0 r s -> lag 1 r (step s (Env c)).
Proof. intros Hc (Hr & H). destruct c; try discriminate; (split; [exact Hr|cbn; lia]). Qed.
Lemma lag_open s : i_mtime (cur s) <= clock s /\ i_ino (cur s) <= clock s -> lag 0 (cur s) (step s WOpen).
Proof. split; [reflexivity|cbn; lia]. Qed.
Lemma lag_verify r s : lag 1 r s -> verdict (step s WVerify) = Some false.
Proof.
  intros (Hr & _ & _ & H). cbn. rewrite Hr. unfold ident_eqb.
  destruct (Z.eqb_spec (i_mtime r) (i_mtime (cur s))), (Z.eqb_spec (i_ino r) (i_ino (cur s))); try reflexivity. lia.
Qed.

Lemma bounded_run evs : i_mtime (cur (run evs)) <= clock (run evs) /\ i_ino (cur (run evs)) <= clock (run evs).
Proof.
  apply (fold_inv (fun s => i_mtime (cur s) <= clock s /\ i_ino (cur s) <= clock s) (fun _ => True));
    [|apply Forall_forall; auto|cbn; lia].
  intros s e _ H. destruct e as [[]| | | | |]; cbn; lia.
Qed.

Definition quiet (evs : list event) : Prop := Forall (fun e => match e with Env _ | WOpen => False | _ => True end) evs.
Lemma quiet_keeps_recorded evs s :
  quiet evs -> recorded s = Some (cur s) -> recorded (fold_left step evs s) = Some (cur (fold_left step evs s)).
Proof.
  apply (fold_inv (fun s => recorded s = Some (cur s))). intros s' e He. destruct e; try contradiction; auto.
Qed.
Lemma recorded_verify s : recorded s = Some (cur s) -> verdict (step s WVerify) = Some true.
Proof. intros E. cbn. rewrite E. unfold ident_eqb. rewrite !Z.eqb_refl. reflexivity. Qed.
