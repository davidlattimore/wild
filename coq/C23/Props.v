(* C23 — size accounting never fails on valid input: the property theorems for the per-resolution tables (.got,
   .plt.got, .rela.plt, .rela.dyn general / relative, .relr.dyn).  The RELR/RELA choice per relocation SITE is
   C09.Props.C23_relative_relocation_space_matches. *)
From Coq Require Import NArith List.
From WV Require Import C23.Model C23.Proofs.
Import ListNotations.
Open Scope N_scope.

(* For every combination of value flags that layout can produce (`consistent`), every output kind, with and without
   -z pack-relative-relocs, whether or not the resolution's value is 0: the writer consumes exactly the GOT entries,
   PLT entries and dynamic relocations that layout reserved, reports no error, and layout addressed as many GOT/PLT
   slots as it reserved — so neither `Insufficient ... allocation` nor `Allocated too much space` can arise here. *)
Theorem C23_resolution_accounting_agrees :
  forall f k relr dynidx z, In k all_kinds -> consistent f k dynidx z = true ->
    consume f k relr dynidx z = Some (alloc f k relr) /\
    c_got (alloc f k relr) = fst (slots f) /\ c_plt (alloc f k relr) = snd (slots f).
Proof. intros f k relr dynidx z Hk Hc. apply verdict_zero_means. apply accounting_agrees; assumption. Qed.
Print Assumptions C23_resolution_accounting_agrees.

(* the rule before the repair in /repo (a .rela.dyn entry for EVERY TLS-offset GOT entry of a shared object) broke it
   for an undefined weak hidden TLS symbol: layout reserved 24 bytes that the writer never used *)
Theorem C23_refuted_for_the_old_tls_offset_rule :
  let f := mk true false false true false false false true false false false in     (* ABSOLUTE | NON_INTERPOSABLE | GOT_TLS_OFFSET *)
  consistent f 4 false true = true /\
  consume f 4 false false true = Some (GOT 1) /\
  sum [GOT 1; when (interposable f || is_shared 4) GEN] = add (GOT 1) GEN.
Proof. vm_compute. repeat split; reflexivity. Qed.
Print Assumptions C23_refuted_for_the_old_tls_offset_rule.

Example C23_hypotheses_satisfiable :
  consistent (mk false true false false true true false false false false false) 3 true false = true /\
  alloc (mk false true false false true true false false false false false) 3 true = sum [GOT 1; PLT; GEN].
Proof. vm_compute. split; reflexivity. Qed.
