(* C23 — the domain is finite: agreement is decided by evaluation over every case (sweep_true) and lifted to the
   universal statement (accounting_agrees). *)
From Coq Require Import NArith List Bool.
From WV Require Import C23.Model.
Open Scope N_scope.

Definition mk (a d i n g p tm to td e ig : bool) : flags :=
  {| absolute := a; dynamic := d; ifunc := i; nonint := n; got := g; plt := p; tmod := tm; toff := to; tdesc := td; expdyn := e; ifga := ig |}.

Lemma in_bools b : In b bools.
Proof. destruct b; cbn; auto. Qed.

Lemma all_flags_complete f : In f all_flags.
Proof.
  destruct f.
  repeat (apply in_flat_map; eexists; split; [apply in_bools|]).
  apply in_map_iff. eexists. split; [reflexivity|apply in_bools].
Qed.

Definition ok_case (f : flags) (k : N) (relr dynidx z : bool) : bool :=
  negb (consistent f k dynidx z) || (verdict f k relr dynidx z =? 0).

Lemma consistent_dynidx f k dynidx z : consistent f k dynidx z = true -> dynidx = has_dynsym f.
Proof.
  intros H. repeat (apply andb_prop in H; destruct H as [H ?]). apply eqb_prop. assumption.
Qed.

(* the conjuncts of [consistent] that speak of the flags alone: 196 of the 2048 flag records pass them, and only for
   those does the sweep go on to the output kinds and options *)
Definition flags_consistent (f : flags) : bool :=
  implb (interposable f) (has_dynsym f) && implb (plt f) (got f && negb (is_tls f)) &&
  implb (ifga f) (ifunc f && plt f) && implb (is_tls f) (negb (got f) && negb (ifunc f) && negb (ifga f)).

Lemma consistent_flags f k dynidx z : consistent f k dynidx z = true -> flags_consistent f = true.
Proof.
  intros H. repeat (apply andb_prop in H; destruct H as [H ?]).
  repeat (apply andb_true_intro; split); assumption.
Qed.

(* stated on the forallb term itself: were it named by a constant and the lemma stated of the constant, Qed and
   coqchk would evaluate the sweep a second time, to see that the constant converts to the term vm_compute evaluated *)
Lemma sweep_true :
  forallb (fun f => negb (flags_consistent f) || forallb (fun k => forallb (fun relr => forallb (fun z =>
    ok_case f k relr (has_dynsym f) z) bools) bools) all_kinds) all_flags = true.
Proof. vm_compute. reflexivity. Qed.

Theorem accounting_agrees f k relr dynidx z :
  In k all_kinds -> consistent f k dynidx z = true -> verdict f k relr dynidx z = 0.
Proof.
  intros Hk Hc. pose proof (consistent_dynidx _ _ _ _ Hc) as ->. pose proof sweep_true as H.
  rewrite forallb_forall in H. specialize (H f (all_flags_complete f)).
  rewrite (consistent_flags _ _ _ _ Hc) in H. cbn [negb orb] in H.
  rewrite forallb_forall in H. specialize (H k Hk).
  rewrite forallb_forall in H. specialize (H relr (in_bools relr)).
  rewrite forallb_forall in H. specialize (H z (in_bools z)).
  unfold ok_case in H. rewrite Hc in H. apply N.eqb_eq in H. exact H.
Qed.

Theorem verdict_zero_means f k relr dynidx z :
  verdict f k relr dynidx z = 0 ->
  consume f k relr dynidx z = Some (alloc f k relr) /\ c_got (alloc f k relr) = fst (slots f) /\ c_plt (alloc f k relr) = snd (slots f).
Proof.
  unfold verdict.
  destruct ((c_got (alloc f k relr) =? fst (slots f)) && (c_plt (alloc f k relr) =? snd (slots f))) eqn:Es; cbn [negb]; [|discriminate].
  apply andb_prop in Es. destruct Es as [E1 E2]. apply N.eqb_eq in E1. apply N.eqb_eq in E2.
  destruct (consume f k relr dynidx z) as [c|]; [|discriminate].
  destruct (counts_eqb (alloc f k relr) c) eqn:Ec; [|discriminate]. intros _.
  split; [|split; assumption]. f_equal.
  destruct (alloc f k relr), c. cbn in Ec.
  repeat (apply andb_prop in Ec; destruct Ec as [Ec ?]). f_equal; symmetry; apply N.eqb_eq; assumption.
Qed.
